(* BytesFacts.v — facts about the executable definitions of Bytes.v: byte-string equality, membership,
   association lists read as maps (first binding wins; keys are [map fst]), lengths and prefixes, scanning with
   take_while / drop_while / split_crlf, quoting. *)
From Coq Require Import List Arith NArith Bool.
From SV Require Import Bytes.
Import ListNotations.

Lemma beq_eq : forall a b, beq a b = true <-> a = b.
Proof.
  induction a as [|x a IH]; destruct b as [|y b]; cbn [beq]; split; intro H;
    try reflexivity; try discriminate.
  - apply andb_true_iff in H. destruct H as [H1 H2].
    apply N.eqb_eq in H1. apply IH in H2. subst. reflexivity.
  - inversion H; subst. apply andb_true_iff. split; [apply N.eqb_refl|apply IH; reflexivity].
Qed.

Lemma beq_refl : forall a, beq a a = true.
Proof. intro a. apply beq_eq. reflexivity. Qed.

Lemma beq_neq : forall a b, beq a b = false <-> a <> b.
Proof.
  intros a b. rewrite <- beq_eq. destruct (beq a b); split; congruence.
Qed.

Lemma beq_sym : forall a b, beq a b = beq b a.
Proof.
  intros a b. destruct (beq b a) eqn:E.
  - apply beq_eq in E. subst. apply beq_refl.
  - apply beq_neq. apply beq_neq in E. congruence.
Qed.

Lemma opt_beq_eq : forall a b, opt_beq a b = true <-> a = b.
Proof.
  intros [a|] [b|]; cbn [opt_beq]; split; intro H; try reflexivity; try discriminate.
  - apply beq_eq in H. subst. reflexivity.
  - inversion H. apply beq_refl.
Qed.

Lemma mem_In : forall x l, mem x l = true <-> In x l.
Proof.
  intros x l. induction l as [|y l IH]; cbn [mem In].
  - split; [discriminate|contradiction].
  - rewrite orb_true_iff, IH, beq_eq. split; intros [H|H]; auto.
Qed.

Lemma mem_false : forall x l, mem x l = false <-> ~ In x l.
Proof. intros x l. rewrite <- mem_In. destruct (mem x l); split; congruence. Qed.

Lemma mem_app : forall x l r, mem x (l ++ r) = mem x l || mem x r.
Proof.
  intros x l r. induction l as [|y l IH]; cbn [mem app]; [reflexivity|].
  rewrite IH. apply orb_assoc.
Qed.

Lemma mem_app_l : forall x l r, mem x l = true -> mem x (l ++ r) = true.
Proof. intros x l r H. rewrite mem_app, H. reflexivity. Qed.

Section Assoc.
  Variable V : Type.
  Implicit Types (k : bytes) (v : V) (m : list (bytes * V)).

  Lemma assoc_get_In : forall k m v, assoc_get k m = Some v -> In (k, v) m.
  Proof.
    intros k m. induction m as [|[k' v'] t IH]; cbn [assoc_get]; intros v H; [discriminate|].
    destruct (beq k k') eqn:E.
    - apply beq_eq in E. inversion H; subst. left. reflexivity.
    - right. apply IH. exact H.
  Qed.

  Lemma get_some_in : forall k m v, assoc_get k m = Some v -> In k (map fst m).
  Proof. intros k m v H. apply assoc_get_In in H. apply (in_map fst) in H. exact H. Qed.

  Lemma in_assoc_set : forall k v m x, In x (assoc_set k v m) -> In x m \/ x = (k, v).
  Proof.
    intros k v m. induction m as [|[k' v'] t IH]; cbn [assoc_set]; intros x H.
    - destruct H as [H|[]]. right. congruence.
    - destruct (beq k k') eqn:E.
      + apply beq_eq in E. subst k'. destruct H as [H|H]; [right; congruence|left; right; exact H].
      + destruct H as [H|H]; [left; left; exact H|].
        destruct (IH x H) as [H'|H']; [left; right; exact H'|right; exact H'].
  Qed.

  Lemma in_assoc_del : forall k m x, In x (assoc_del k m) -> In x m.
  Proof.
    intros k m. induction m as [|[k' v'] t IH]; cbn [assoc_del]; intros x H; [exact H|].
    destruct (beq k k'); [right; exact H|].
    destruct H as [H|H]; [left; exact H|right; apply IH; exact H].
  Qed.

  Lemma get_set_same : forall k v m, assoc_get k (assoc_set k v m) = Some v.
  Proof.
    intros k v m. induction m as [|[k' v'] t IH]; cbn; [rewrite beq_refl; reflexivity|].
    destruct (beq k k') eqn:E; cbn; rewrite E; [reflexivity|exact IH].
  Qed.

  Lemma get_set_other : forall k k' v m, k <> k' -> assoc_get k (assoc_set k' v m) = assoc_get k m.
  Proof.
    intros k k' v m Hne. apply beq_neq in Hne. induction m as [|[k2 v2] t IH]; cbn.
    - rewrite Hne. reflexivity.
    - destruct (beq k' k2) eqn:E; cbn.
      + apply beq_eq in E. subst k2. rewrite Hne. reflexivity.
      + destruct (beq k k2); [reflexivity|exact IH].
  Qed.

  Lemma get_none_notin : forall k m, assoc_get k m = None <-> ~ In k (map fst m).
  Proof.
    intros k m. induction m as [|[k' v'] t IH]; cbn [assoc_get map fst In]; [tauto|].
    destruct (beq k k') eqn:E.
    - apply beq_eq in E. split; [discriminate|]. intro H. exfalso. apply H. left. symmetry. exact E.
    - apply beq_neq in E. rewrite IH. split; [intros H [X|X]; [congruence|exact (H X)]|tauto].
  Qed.

  Lemma keys_set : forall k v m x, In x (map fst (assoc_set k v m)) <-> x = k \/ In x (map fst m).
  Proof.
    intros k v m x. split.
    - intro H. apply in_map_iff in H. destruct H as ([k0 v0] & <- & H).
      destruct (in_assoc_set _ _ _ _ H) as [H'|H']; [right; apply (in_map fst _ _ H')|left; inversion H'; reflexivity].
    - induction m as [|[k' v'] t IH]; cbn [assoc_set map fst In].
      + intros [->|[]]. left. reflexivity.
      + destruct (beq k k') eqn:E; cbn [map fst In].
        * apply beq_eq in E. subst k'. intros [->|H]; auto.
        * intros [->|[H|H]]; auto.
  Qed.

  Lemma keys_del : forall k m x, In x (map fst (assoc_del k m)) -> In x (map fst m).
  Proof.
    intros k m x H. apply in_map_iff in H. destruct H as (p & <- & H).
    apply in_map. eapply in_assoc_del. exact H.
  Qed.

  Lemma keys_del_intro : forall k m x, x <> k -> In x (map fst m) -> In x (map fst (assoc_del k m)).
  Proof.
    intros k m x N. induction m as [|[k' v'] t IH]; cbn [assoc_del map fst In]; [auto|].
    destruct (beq k k') eqn:E; cbn [map fst In].
    - apply beq_eq in E. subst k'. intros [H|H]; [congruence | exact H].
    - intros [H|H]; auto.
  Qed.

  Lemma nodup_set : forall k v m, NoDup (map fst m) -> NoDup (map fst (assoc_set k v m)).
  Proof.
    intros k v m. induction m as [|[k' v'] t IH]; intro H; cbn.
    - constructor; [intros []|constructor].
    - inversion H as [|x l Hx Hl]; subst. destruct (beq k k') eqn:E; cbn; [constructor; assumption|].
      constructor; [|apply IH; exact Hl]. intro X. destruct (proj1 (keys_set _ _ _ _) X) as [->|X'].
      + rewrite beq_refl in E. discriminate.
      + contradiction.
  Qed.

  Lemma nodup_del : forall k m, NoDup (map fst m) -> NoDup (map fst (assoc_del k m)).
  Proof.
    intros k m. induction m as [|[k' v'] t IH]; intro H; cbn; [constructor|].
    inversion H as [|x l Hx Hl]; subst. destruct (beq k k'); [exact Hl|].
    cbn. constructor; [|apply IH; exact Hl]. intro X. apply Hx. eapply keys_del. exact X.
  Qed.

  Lemma get_del_same : forall k m, NoDup (map fst m) -> assoc_get k (assoc_del k m) = None.
  Proof.
    intros k m. induction m as [|[k' v'] t IH]; intro H; cbn; [reflexivity|].
    inversion H as [|x l Hx Hl]; subst. destruct (beq k k') eqn:E.
    - apply beq_eq in E. subst. apply get_none_notin. exact Hx.
    - cbn. rewrite E. apply IH. exact Hl.
  Qed.

  Lemma get_del_other : forall k k' m, k <> k' -> assoc_get k (assoc_del k' m) = assoc_get k m.
  Proof.
    intros k k' m Hne. apply beq_neq in Hne. induction m as [|[k2 v2] t IH]; cbn; [reflexivity|].
    destruct (beq k' k2) eqn:E.
    - apply beq_eq in E. subst k2. rewrite Hne. reflexivity.
    - cbn. destruct (beq k k2); [reflexivity|exact IH].
  Qed.
End Assoc.

Lemma blen_app : forall a b : bytes, (blen (a ++ b) = blen a + blen b)%N.
Proof. intros. unfold blen. rewrite app_length. apply Nat2N.inj_add. Qed.

Lemma firstn_length_app : forall {A} (s r : list A), firstn (length s) (s ++ r) = s.
Proof.
  intros A s r. rewrite <- (Nat.add_0_r (length s)), firstn_app_2. cbn [firstn]. apply app_nil_r.
Qed.

Lemma skipn_length_app : forall {A} (s r : list A), skipn (length s) (s ++ r) = r.
Proof. intros A s r. rewrite skipn_app, skipn_all, Nat.sub_diag. reflexivity. Qed.

(* dropping a suffix by its length, as in b[:-2] *)
Lemma firstn_drop_suffix : forall {A} (x y : list A), firstn (length (x ++ y) - length y) (x ++ y) = x.
Proof.
  intros A x y. rewrite app_length, Nat.add_sub. apply firstn_length_app.
Qed.

Lemma starts_with_app : forall p l, starts_with p (p ++ l) = true.
Proof.
  induction p as [|x p IH]; intro l; cbn [app starts_with]; [reflexivity|].
  rewrite N.eqb_refl. apply IH.
Qed.

Lemma ends_with_app : forall p x, ends_with p (x ++ p) = true.
Proof. intros p x. unfold ends_with. rewrite rev_app_distr. apply starts_with_app. Qed.

Lemma contains_byte_Forall : forall c l, contains_byte c l = false <-> Forall (fun x => x <> c) l.
Proof.
  intros c l. induction l as [|x l IH]; cbn [contains_byte].
  - split; [constructor | reflexivity].
  - rewrite orb_false_iff, Forall_cons_iff, IH, N.eqb_neq. reflexivity.
Qed.

Lemma contains_byte_app : forall c a b,
  contains_byte c (a ++ b) = contains_byte c a || contains_byte c b.
Proof.
  induction a as [|x a IH]; intro b; cbn [app contains_byte].
  - reflexivity.
  - rewrite IH, orb_assoc. reflexivity.
Qed.

Lemma take_while_app_stop : forall f a c t,
  Forall (fun x => f x = true) a -> f c = false -> take_while f (a ++ c :: t) = a.
Proof.
  intros f a c t Ha Hc. induction Ha as [|x a Hx Ha IH]; cbn [app take_while].
  - rewrite Hc. reflexivity.
  - rewrite Hx, IH. reflexivity.
Qed.

Lemma drop_while_app_stop : forall f a c t,
  Forall (fun x => f x = true) a -> f c = false -> drop_while f (a ++ c :: t) = c :: t.
Proof.
  intros f a c t Ha Hc. induction Ha as [|x a Hx Ha IH]; cbn [app drop_while].
  - rewrite Hc. reflexivity.
  - rewrite Hx, IH. reflexivity.
Qed.

Lemma take_while_all : forall f l, Forall (fun x => f x = true) l -> take_while f l = l.
Proof.
  intros f l H. induction H as [|x l Hx Hl IH]; cbn [take_while].
  - reflexivity.
  - rewrite Hx, IH. reflexivity.
Qed.

Lemma split_crlf_cons2 : forall a b t,
  split_crlf (a :: b :: t) =
  if ((a =? 13) && (b =? 10))%N then Some ([], t)
  else match split_crlf (b :: t) with Some (x, y) => Some (a :: x, y) | None => None end.
Proof. reflexivity. Qed.

Lemma split_crlf_first : forall l rest,
  Forall (fun x => x <> 13%N) l -> split_crlf (l ++ 13%N :: 10%N :: rest) = Some (l, rest).
Proof.
  induction l as [|a l IH]; intros rest H; [reflexivity|].
  inversion H as [|? ? Ha Hl]; subst. apply N.eqb_neq in Ha. specialize (IH rest Hl).
  destruct l as [|b l']; cbn [app] in *; rewrite split_crlf_cons2, Ha; cbn [andb].
  - reflexivity.
  - rewrite IH. reflexivity.
Qed.

Lemma split_crlf_app : forall l x y e,
  split_crlf l = Some (x, y) -> split_crlf (l ++ e) = Some (x, y ++ e).
Proof.
  induction l as [|a t IH]; intros x y e H; [discriminate|].
  destruct t as [|b t']; [discriminate|].
  cbn [app] in *. rewrite split_crlf_cons2 in H |- *. destruct ((a =? 13) && (b =? 10))%N.
  - inversion H; subst. reflexivity.
  - destruct (split_crlf (b :: t')) as [[x' y']|] eqn:E2; [|discriminate].
    injection H as <- <-. rewrite (IH x' y' e eq_refl). reflexivity.
Qed.

Lemma escape_q_cons : forall c t,
  escape_q (c :: t) =
  if ((c =? 92) || (c =? 34))%N then 92%N :: c :: escape_q t else c :: escape_q t.
Proof. reflexivity. Qed.

Lemma Forall_escape_q : forall (P : N -> Prop) l, P 92%N -> Forall P l -> Forall P (escape_q l).
Proof.
  intros P l H92 H. induction H as [|c t Hc Ht IH]; [constructor|].
  rewrite escape_q_cons. destruct ((c =? 92) || (c =? 34))%N; repeat constructor; assumption.
Qed.

Lemma Forall_quote : forall (P : N -> Prop) l, P 92%N -> P 34%N -> Forall P l -> Forall P (quote l).
Proof.
  intros P l H92 H34 H. unfold quote. constructor; [assumption|].
  apply Forall_app. split; [apply Forall_escape_q; assumption | repeat constructor; assumption].
Qed.

Theorem unescape_escape : forall l, unescape_q (escape_q l) = l.
Proof.
  induction l as [|a l IH]; [reflexivity|].
  rewrite escape_q_cons. destruct ((a =? 92) || (a =? 34))%N eqn:E; cbn [unescape_q].
  - rewrite IH. reflexivity.
  - apply orb_false_iff in E. destruct E as [E _]. rewrite E, IH. reflexivity.
Qed.

Lemma scan_quoted_body_escape : forall l r,
  scan_quoted_body (escape_q l ++ 34%N :: r) = Some (escape_q l, r).
Proof.
  induction l as [|a l IH]; intro r; [reflexivity|].
  rewrite escape_q_cons. destruct ((a =? 92) || (a =? 34))%N eqn:E; cbn [app scan_quoted_body].
  - rewrite IH. reflexivity.
  - apply orb_false_iff in E. destruct E as [E1 E2]. rewrite E1, E2, IH. reflexivity.
Qed.

Theorem scan_quoted_quote : forall l r, scan_quoted (quote l ++ r) = Some (escape_q l, r).
Proof.
  intros l r. unfold quote. cbn [app scan_quoted]. rewrite <- app_assoc. apply scan_quoted_body_escape.
Qed.

Lemma assoc_get_app : forall (V : Type) k (l r : list (bytes * V)),
  assoc_get k (l ++ r) = match assoc_get k l with Some v => Some v | None => assoc_get k r end.
Proof. induction l as [|[k' v] l IH]; intro r; cbn [app assoc_get]; [reflexivity|]. destruct (beq k k'); [reflexivity|apply IH]. Qed.
