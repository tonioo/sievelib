(* WriterFacts.v — the command writer of the client model (Client.command_bytes) against
   the strict RFC 5804 command parser of the specification side (Server.parse_command):
   whatever verb (non-empty, alphabetic) and arguments the client formats, the strict
   parser reads back exactly one command with the upper-cased verb and the decoded
   arguments, and leaves the following bytes untouched. *)
From Coq Require Import List Arith NArith Bool Lia.
From SV Require Import Bytes BytesFacts Client Server.
Import ListNotations.
Open Scope N_scope.

Lemma is_digit_spec : forall c, is_digit c = true <-> 48 <= c <= 57.
Proof.
  intro c. unfold is_digit. rewrite andb_true_iff, !N.leb_le. tauto.
Qed.

Lemma is_digit_false_spec : forall c, is_digit c = false <-> (c < 48 \/ 57 < c).
Proof.
  intro c. unfold is_digit. rewrite andb_false_iff, !N.leb_gt. tauto.
Qed.

Lemma is_alpha_spec : forall c, is_alpha c = true <-> (65 <= c <= 90 \/ 97 <= c <= 122).
Proof.
  intro c. unfold is_alpha, is_upper, is_lower.
  rewrite orb_true_iff, !andb_true_iff, !N.leb_le. tauto.
Qed.

Lemma is_alpha_false_of_range : forall c, (c < 65 \/ 90 < c < 97 \/ 122 < c) -> is_alpha c = false.
Proof.
  intros c H. destruct (is_alpha c) eqn:E; [|reflexivity].
  apply is_alpha_spec in E. lia.
Qed.

Lemma fold_left_app_state : forall (A B : Type) (f : A -> B -> A) (a b : list B) (x : A),
  fold_left f (a ++ b) x = fold_left f b (fold_left f a x).
Proof. intros. apply fold_left_app. Qed.

(* the step function of num_of_digits: [num_of_digits l] is [fold_left dstep l 0] by conversion *)
Definition dstep (acc c : N) : N := acc * 10 + (c - 48).

Lemma dec_aux_S : forall f n acc,
  dec_aux (S f) n acc =
  if n / 10 =? 0 then (48 + n mod 10) :: acc
  else dec_aux f (n / 10) ((48 + n mod 10) :: acc).
Proof. reflexivity. Qed.

Lemma dec_aux_digits : forall fuel n acc,
  Forall (fun c => is_digit c = true) acc ->
  Forall (fun c => is_digit c = true) (dec_aux fuel n acc).
Proof.
  induction fuel as [|fuel IH]; intros n acc H.
  - exact H.
  - rewrite dec_aux_S.
    assert (H' : Forall (fun c => is_digit c = true) ((48 + n mod 10) :: acc)).
    { constructor; [|exact H]. apply is_digit_spec.
      assert (Hm : n mod 10 < 10) by (apply N.mod_lt; discriminate).
      generalize dependent (n mod 10). intros. lia. }
    destruct (n / 10 =? 0); [exact H'|apply IH; exact H'].
Qed.

Lemma dec_aux_nonempty : forall fuel n acc, acc <> [] -> dec_aux fuel n acc <> [].
Proof.
  induction fuel as [|fuel IH]; intros n acc H.
  - exact H.
  - rewrite dec_aux_S. destruct (n / 10 =? 0); [discriminate|apply IH; discriminate].
Qed.

(* [dec] gives dec_aux the bit length of n plus one as fuel, and each round divides n by 10 >= 2 *)
Lemma dec_aux_num : forall fuel n acc,
  n < 2 ^ N.of_nat fuel ->
  fold_left dstep (dec_aux fuel n acc) 0 = fold_left dstep acc n.
Proof.
  induction fuel as [|fuel IH]; intros n acc H.
  - change (N.of_nat 0) with 0 in H. rewrite N.pow_0_r in H.
    assert (n = 0) by lia. subst n. reflexivity.
  - rewrite Nat2N.inj_succ, N.pow_succ_r' in H.
    rewrite dec_aux_S.
    assert (Hm : n mod 10 < 10) by (apply N.mod_lt; discriminate).
    assert (Hd : n = 10 * (n / 10) + n mod 10) by (apply N.div_mod'; discriminate).
    revert Hm Hd. generalize (n mod 10) as m. generalize (n / 10) as q. intros q m Hm Hd.
    destruct (q =? 0) eqn:E.
    + apply N.eqb_eq in E. cbn [fold_left]. f_equal. unfold dstep. lia.
    + rewrite IH by lia. cbn [fold_left]. f_equal. unfold dstep. lia.
Qed.

Lemma pos_size_nat_gt : forall p, N.pos p < 2 ^ N.of_nat (Pos.size_nat p).
Proof.
  induction p as [p IH|p IH|]; cbn [Pos.size_nat].
  - rewrite Nat2N.inj_succ, N.pow_succ_r'. lia.
  - rewrite Nat2N.inj_succ, N.pow_succ_r'. lia.
  - change (N.of_nat 1) with 1. rewrite N.pow_1_r. lia.
Qed.

Lemma size_nat_gt : forall n, n < 2 ^ N.of_nat (S (N.size_nat n)).
Proof.
  intro n. rewrite Nat2N.inj_succ, N.pow_succ_r'. destruct n as [|p].
  - cbn [N.size_nat]. change (N.of_nat 0) with 0. rewrite N.pow_0_r. lia.
  - cbn [N.size_nat]. pose proof (pos_size_nat_gt p). lia.
Qed.

Theorem dec_digits : forall n, Forall (fun c => is_digit c = true) (dec n).
Proof.
  intro n. unfold dec. apply dec_aux_digits. constructor.
Qed.

Theorem dec_nonempty : forall n, dec n <> [].
Proof.
  intro n. unfold dec. rewrite dec_aux_S.
  destruct (n / 10 =? 0); [discriminate|apply dec_aux_nonempty; discriminate].
Qed.

Theorem dec_roundtrip : forall n, num_of_digits (dec n) = n.
Proof.
  intro n. exact (dec_aux_num _ n [] (size_nat_gt n)).
Qed.

Lemma dec_scan : forall n c t,
  is_digit c = false ->
  take_while is_digit (dec n ++ c :: t) = dec n /\ drop_while is_digit (dec n ++ c :: t) = c :: t.
Proof.
  intros n c t Hc. split; [apply take_while_app_stop | apply drop_while_app_stop]; auto using dec_digits.
Qed.

Lemma dec_cons : forall n, exists d ds, dec n = d :: ds /\ is_digit d = true.
Proof.
  intro n. pose proof (dec_digits n) as HF. pose proof (dec_nonempty n) as HN.
  destruct (dec n) as [|d ds]; [congruence|]. inversion HF; eauto.
Qed.

Theorem strict_quoted_roundtrip : forall s r,
  contains_byte 0 s = false -> contains_byte 13 s = false -> contains_byte 10 s = false ->
  strict_quoted_body (escape_q s ++ 34 :: r) = Some (Some (s, r)).
Proof.
  induction s as [|c s IH]; intros r H0 H13 H10; [reflexivity|].
  cbn [contains_byte] in H0, H13, H10. apply orb_false_iff in H0, H13, H10.
  destruct H0 as [C0 H0], H13 as [C13 H13], H10 as [C10 H10]. specialize (IH r H0 H13 H10).
  rewrite escape_q_cons. destruct ((c =? 92) || (c =? 34)) eqn:E; cbn [app strict_quoted_body].
  - (* an escaped byte: backslash, then c which is a backslash or a double quote *)
    rewrite orb_comm, E, IH. reflexivity.
  - apply orb_false_iff in E. destruct E as [E92 E34]. rewrite E34, E92, C0, C13, C10, IH. reflexivity.
Qed.

Lemma literal_c2s_app : forall s r,
  literal_c2s s ++ r = 123 :: dec (blen s) ++ 43 :: 125 :: 13 :: 10 :: s ++ r.
Proof.
  intros s r. unfold literal_c2s, CRLF. rewrite <- !app_assoc. reflexivity.
Qed.

Theorem strict_literal_roundtrip : forall s r,
  strict_literal (literal_c2s s ++ r) = Some (Some (s, r)).
Proof.
  intros s r. rewrite literal_c2s_app. unfold strict_literal.
  change (123 =? 123) with true. cbv beta iota zeta.
  destruct (dec_scan (blen s) 43 (125 :: 13 :: 10 :: s ++ r) eq_refl) as [-> ->].
  destruct (dec_cons (blen s)) as (d & ds & E & _). rewrite E.
  cbv beta iota. rewrite <- E, dec_roundtrip. unfold blen. rewrite Nat2N.id.
  assert (L : Nat.leb (length s) (length (s ++ r)) = true).
  { apply Nat.leb_le. rewrite app_length. lia. }
  rewrite L, firstn_length_app, skipn_length_app. reflexivity.
Qed.

Definition decode_arg (a : arg) : parg :=
  match a with
  | AStr s => PStr s
  | ALit c => PStr c
  | ANum n => PNum n
  end.

Lemma strict_arg_literal : forall s r,
  strict_arg (literal_c2s s ++ r) = Some (Some (PStr s, r)).
Proof.
  intros s r. pose proof (strict_literal_roundtrip s r) as H.
  rewrite literal_c2s_app in *. unfold strict_arg.
  change (123 =? 34) with false. change (123 =? 123) with true. cbv iota.
  rewrite H. reflexivity.
Qed.

Lemma strict_arg_quoted : forall s r,
  contains_byte 0 s = false -> contains_byte 13 s = false -> contains_byte 10 s = false ->
  strict_arg (quote s ++ r) = Some (Some (PStr s, r)).
Proof.
  intros s r H0 H13 H10. unfold quote. cbn [app]. rewrite <- app_assoc. cbn [app].
  unfold strict_arg. change (34 =? 34) with true. cbv iota.
  rewrite strict_quoted_roundtrip by assumption. reflexivity.
Qed.

Lemma strict_arg_num : forall n c t,
  is_digit c = false ->
  strict_arg (dec n ++ c :: t) = Some (Some (PNum n, c :: t)).
Proof.
  intros n c t Hc. destruct (dec_scan n c t Hc) as [HT HD]. destruct (dec_cons n) as (d & ds & E & Hd).
  unfold strict_arg. rewrite HT, HD, E. cbn [app].
  assert (48 <= d <= 57) as Hr by (apply is_digit_spec; exact Hd).
  assert (E34 : d =? 34 = false) by (apply N.eqb_neq; lia).
  assert (E123 : d =? 123 = false) by (apply N.eqb_neq; lia).
  rewrite E34, E123, Hd, <- E, dec_roundtrip. reflexivity.
Qed.

Lemma strict_arg_string : forall s r,
  strict_arg (prepare_arg (AStr s) ++ r) = Some (Some (PStr s, r)).
Proof.
  intros s r. cbn [prepare_arg].
  destruct (contains_byte 13 s) eqn:E13; [apply strict_arg_literal|].
  destruct (contains_byte 10 s) eqn:E10; [apply strict_arg_literal|].
  destruct (contains_byte 0 s) eqn:E0; [apply strict_arg_literal|].
  apply strict_arg_quoted; assumption.
Qed.

Theorem strict_arg_roundtrip : forall a r,
  (exists c t, r = c :: t /\ is_digit c = false) ->
  strict_arg (prepare_arg a ++ r) = Some (Some (decode_arg a, r)).
Proof.
  intros a r (c & t & -> & Hc). destruct a as [s|n|s].
  - apply strict_arg_string.
  - apply strict_arg_num. exact Hc.
  - apply strict_arg_literal.
Qed.

Theorem strict_arg_roundtrip_string : forall a r,
  (forall n, a <> ANum n) ->
  strict_arg (prepare_arg a ++ r) = Some (Some (decode_arg a, r)).
Proof.
  intros a r Hn. destruct a as [s|n|s].
  - apply strict_arg_string.
  - exfalso. exact (Hn n eq_refl).
  - apply strict_arg_literal.
Qed.

Fixpoint sp_args (l : list bytes) : bytes :=
  match l with
  | [] => []
  | x :: t => 32 :: x ++ sp_args t
  end.

Lemma join_sp_args : forall l,
  match l with [] => [] | _ => [32] ++ join [32] l end = sp_args l.
Proof.
  destruct l as [|x l]; [reflexivity|].
  revert x. induction l as [|y l IH]; intro x.
  - cbn [join sp_args app]. rewrite app_nil_r. reflexivity.
  - specialize (IH y). cbn [sp_args]. cbn [sp_args] in IH.
    change (join [32] (x :: y :: l)) with (x ++ [32] ++ join [32] (y :: l)).
    rewrite <- IH. reflexivity.
Qed.

Lemma command_bytes_sp_args : forall verb args rest,
  command_bytes verb args ++ rest =
  verb ++ sp_args (map prepare_arg args) ++ 13 :: 10 :: rest.
Proof.
  intros verb args rest. unfold command_bytes, CRLF.
  rewrite <- (join_sp_args (map prepare_arg args)).
  rewrite <- !app_assoc.
  destruct args; reflexivity.
Qed.

Lemma sp_args_head : forall l rest,
  exists c t, sp_args l ++ 13 :: 10 :: rest = c :: t /\ (c = 32 \/ c = 13).
Proof.
  intros l rest. destruct l as [|x l]; cbn [sp_args app]; eauto.
Qed.

Lemma strict_args_sp : forall fuel r acc,
  strict_args (S fuel) (32 :: r) acc =
  match strict_arg r with
  | Some (Some (a, r')) => strict_args fuel r' (a :: acc)
  | Some None => Some None
  | None => None
  end.
Proof. reflexivity. Qed.

Lemma strict_args_crlf : forall fuel r acc,
  strict_args (S fuel) (13 :: 10 :: r) acc = Some (Some (rev acc, r)).
Proof. reflexivity. Qed.

Lemma strict_args_roundtrip : forall args fuel acc rest,
  (length args < fuel)%nat ->
  strict_args fuel (sp_args (map prepare_arg args) ++ 13 :: 10 :: rest) acc =
  Some (Some (rev acc ++ map decode_arg args, rest)).
Proof.
  induction args as [|a args IH]; intros fuel acc rest Hf.
  - destruct fuel as [|fuel]; [cbn [length] in Hf; lia|].
    cbn [map sp_args app]. rewrite strict_args_crlf, app_nil_r. reflexivity.
  - destruct fuel as [|fuel]; [cbn [length] in Hf; lia|].
    cbn [length] in Hf.
    cbn [map sp_args app]. rewrite <- app_assoc. rewrite strict_args_sp.
    rewrite strict_arg_roundtrip.
    + rewrite IH by lia. cbn [rev map]. rewrite <- app_assoc. reflexivity.
    + destruct (sp_args_head (map prepare_arg args) rest) as (c & t & E & Hc).
      exists c, t. split; [exact E|].
      apply is_digit_false_spec. lia.
Qed.

Lemma sp_args_length : forall l, (length l <= length (sp_args l))%nat.
Proof.
  induction l as [|x l IH]; cbn [sp_args length].
  - lia.
  - rewrite app_length. lia.
Qed.

Theorem command_roundtrip : forall verb args rest,
  verb <> [] ->
  Forall (fun c => is_alpha c = true) verb ->
  parse_command (command_bytes verb args ++ rest) =
  PCmd (upper verb) (map decode_arg args) rest.
Proof.
  intros verb args rest Hne Hal.
  rewrite command_bytes_sp_args.
  destruct (sp_args_head (map prepare_arg args) rest) as (c & t & E & Hc).
  assert (Hcf : is_verb_char c = false).
  { unfold is_verb_char. apply is_alpha_false_of_range. lia. }
  assert (HT : take_while is_verb_char (verb ++ c :: t) = verb)
    by (apply take_while_app_stop; assumption).
  assert (HD : drop_while is_verb_char (verb ++ c :: t) = c :: t)
    by (apply drop_while_app_stop; assumption).
  rewrite E in *.
  destruct verb as [|v verb]; [congruence|].
  inversion Hal as [|? ? Hv _]; subst.
  apply is_alpha_spec in Hv.
  cbn [app] in *. unfold parse_command.
  assert (E34 : v =? 34 = false) by (apply N.eqb_neq; lia).
  assert (E123 : v =? 123 = false) by (apply N.eqb_neq; lia).
  rewrite E34, E123. cbn [orb]. cbv zeta. rewrite HT, HD.
  rewrite <- E. rewrite strict_args_roundtrip.
  - reflexivity.
  - rewrite app_length. pose proof (sp_args_length (map prepare_arg args)) as L.
    rewrite map_length in L. lia.
Qed.

Corollary command_exactly_one : forall verb args,
  verb <> [] ->
  Forall (fun c => is_alpha c = true) verb ->
  parse_command (command_bytes verb args) =
  PCmd (upper verb) (map decode_arg args) [].
Proof.
  intros verb args Hne Hal.
  rewrite <- (app_nil_r (command_bytes verb args)).
  apply command_roundtrip; assumption.
Qed.

Print Assumptions dec_digits.
Print Assumptions dec_nonempty.
Print Assumptions dec_roundtrip.
Print Assumptions strict_quoted_roundtrip.
Print Assumptions strict_literal_roundtrip.
Print Assumptions strict_arg_roundtrip.
Print Assumptions command_roundtrip.
Print Assumptions command_exactly_one.
