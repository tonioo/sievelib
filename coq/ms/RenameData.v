(* RenameData.v — property C14: the emulated RENAMESCRIPT at the byte level refines the abstract rename.

   The client's emulation (the branch of renamescript taken when it has not seen VERSION) -- LISTSCRIPTS,
   GETSCRIPT old, PUTSCRIPT new, [SETACTIVE new,] DELETESCRIPT old, with the checks in between -- run by the stream
   semantics against the reference server with any list of planned faults and every choice of reply encodings,
   returns what [RenameAbs.rename_abs] computes on the server's abstract state for the plan "fault of the n-th
   command of this call" and leaves the server with exactly that store and active script.  The safety statements
   of C14 (RenameFacts) are about [rename_abs]; this is the tie.  The walk is done once, for any fault list; the
   statements for a conforming server (no fault planned) are its instance for the empty list. *)
From Coq Require Import String.
From Coq Require Import List NArith Bool Arith Lia.
From SV Require Import Bytes BytesFacts Base64 Client Transport Server Session WriterFacts StatusFacts DecodeFacts DataFacts
  SessionFacts SessionData FaultFacts RenameAbs RenameFacts.
Import ListNotations.
Local Open Scope nat_scope.

Definition same_data (s t : sstate) : Prop :=
  s_store t = s_store s /\ s_active t = s_active s /\ s_cfg t = s_cfg s.

Lemma same_data_refl : forall s, same_data s s.
Proof. intro s. repeat split. Qed.

Lemma same_data_trans : forall a b c, same_data a b -> same_data b c -> same_data a c.
Proof. intros a b c (A1 & A2 & A3) (B1 & B2 & B3). repeat split; congruence. Qed.

Lemma listing_active_eq : forall store active,
  last_active (listing_entries store active) =
  match active with Some a => if mem a (map fst store) then Some a else None | None => None end.
Proof.
  intros store active. induction store as [|[n c] t IH]; [destruct active; reflexivity|].
  cbn [listing_entries map last_active fst snd]. unfold listing_entries in IH. rewrite IH.
  destruct active as [a|]; [|reflexivity]. cbn [mem opt_beq].
  destruct (mem a (map fst t)); [rewrite orb_true_r; reflexivity|]. rewrite orb_false_r.
  destruct (beq n a) eqn:E.
  - apply beq_eq in E. subst. rewrite beq_refl. reflexivity.
  - apply beq_neq in E. assert (E' : beq a n = false) by (apply beq_neq; congruence). rewrite E'. reflexivity.
Qed.

Lemma listing_others_eq : forall store active,
  map fst (filter (fun e => negb (snd e)) (listing_entries store active)) =
  filter (fun n => negb (opt_beq (Some n) active)) (map fst store).
Proof.
  intros store active. induction store as [|[n c] t IH]; [reflexivity|].
  cbn [listing_entries map filter fst snd]. unfold listing_entries in IH.
  destruct (negb (opt_beq (Some n) active)); cbn [map fst]; rewrite IH; reflexivity.
Qed.

Lemma listing_of_eq : forall s,
  (last_active (listing_entries (s_store s) (s_active s)),
   map fst (filter (fun e => negb (snd e)) (listing_entries (s_store s) (s_active s)))) = listing_of s.
Proof.
  intro s. unfold listing_of, listing_active, listing_others. rewrite listing_active_eq, listing_others_eq. reflexivity.
Qed.

Lemma listing_of_same_data : forall s t, same_data s t -> listing_of t = listing_of s.
Proof.
  intros s t (A & B & _). unfold listing_of, listing_active, listing_others. rewrite A, B. reflexivity.
Qed.

Definition ok_world (w : sworld sstate) : Prop := s_stream sstate w = [] /\ conforming (s_peer sstate w).

Lemma srv_step_congr : forall verb pargs sabs s a sabs',
  same_data sabs s -> exec_command verb pargs sabs = Some (a, sabs') ->
  exists s2, srv_step verb pargs s = Some (a, s2) /\ same_data sabs' s2 /\ s_cfg s2 = s_cfg s.
Proof.
  intros verb pargs sabs s a sabs' (D1 & D2 & D3) Hex. unfold srv_step.
  rewrite (exec_data verb pargs sabs (booked verb pargs s) D1 D2 D3), Hex.
  destruct (exec_frame _ _ _ _ _ Hex) as (x & y & ->).
  eexists. split; [reflexivity|]. split; [|reflexivity]. repeat split. exact D3.
Qed.

Lemma names_ok_same : forall s t, same_data s t -> names_ok s -> names_ok t.
Proof. intros s t (A & _) H. unfold names_ok in *. rewrite A. exact H. Qed.

Lemma stepped_same_data : forall s sd s3 sabs',
  stepped s sd s3 -> same_data sabs' sd -> s_cfg sd = s_cfg s -> same_data sabs' s3.
Proof. intros s sd s3 sabs' (_ & _ & _ & S1 & S2 & S3) (D1 & D2 & D3) Hcfg. repeat split; congruence. Qed.

(* PUTSCRIPT, SETACTIVE and DELETESCRIPT are always answered, and a NO leaves the server as it was *)
Definition ok_or_no (a : answer) (s s' : sstate) : Prop :=
  (exists code, a = AnsOK code) \/ ((exists code, a = AnsNO code) /\ s' = s).

Lemma exec_put_total : forall n c s, exists a s',
  exec_command (bs "PUTSCRIPT") [PStr n; PStr c] s = Some (a, s') /\ ok_or_no a s s'.
Proof.
  intros n c s. rewrite exec_put. unfold ok_or_no.
  destruct (cfg_maxsize (s_cfg s) <? blen c)%N;
    [|destruct (negb (has n s) && Nat.leb (cfg_maxscripts (s_cfg s)) (length (s_store s)))];
    eexists _, _; (split; [reflexivity|]); eauto.
Qed.

Lemma exec_set_total : forall n s, exists a s',
  exec_command (bs "SETACTIVE") [PStr n] s = Some (a, s') /\ ok_or_no a s s'.
Proof.
  intros n s. rewrite exec_setactive. unfold ok_or_no.
  destruct n; [|destruct (has _ s)]; eexists _, _; (split; [reflexivity|]); eauto.
Qed.

Lemma exec_del_total : forall n s, exists a s',
  exec_command (bs "DELETESCRIPT") [PStr n] s = Some (a, s') /\ ok_or_no a s s'.
Proof.
  intros n s. rewrite exec_del. unfold ok_or_no.
  destruct (negb (has n s)); [|destruct (opt_beq (Some n) (s_active s))];
    eexists _, _; (split; [reflexivity|]); eauto.
Qed.

Definition aresult_of (o : outcome) : option aresult :=
  match o with
  | ODone (VBool true) _ => Some RTrue
  | ODone (VBool false) _ => Some RFalse
  | _ => None
  end.

Lemma emulation_verb_ok : forall v,
  In v [bs "LISTSCRIPTS"; bs "GETSCRIPT"; bs "PUTSCRIPT"; bs "SETACTIVE"; bs "DELETESCRIPT"] ->
  verb_ok v /\ In v script_verbs.
Proof.
  intros v H. assert (Hs : In v script_verbs) by (revert H; unfold script_verbs; cbn [In]; tauto).
  split; [|exact Hs]. destruct (script_verb_ok v Hs) as (A & B & _). split; assumption.
Qed.

Section Plan.
  Variable Fl : list (nat * fault).
  Variable base : nat.   (* the server's command counter when the call starts *)

  Definition plan (n : nat) : fault := find_fault (base + n) Fl.

  (* the world after n commands of this call, the server's data being those of [sabs] *)
  Definition tracks (n : nat) (sabs : sstate) (w : sworld sstate) : Prop :=
    s_stream sstate w = [] /\ live (s_peer sstate w) /\ same_data sabs (s_peer sstate w) /\
    s_faults (s_peer sstate w) = Fl /\ s_count (s_peer sstate w) = base + n.

  Lemma tracks_fault : forall n sabs w, tracks n sabs w -> fault_now (s_peer sstate w) = plan n.
  Proof. intros n sabs w (_ & _ & _ & Hf & Hc). unfold fault_now, plan. rewrite Hf, Hc. reflexivity. Qed.

  Lemma stepped_tracks : forall n sabs sabs' (w w' : sworld sstate) sd,
    tracks n sabs w -> stepped (s_peer sstate w) sd (s_peer sstate w') -> same_data sabs' sd ->
    s_cfg sd = s_cfg (s_peer sstate w) -> s_stream sstate w' = [] ->
    tracks (S n) sabs' w'.
  Proof.
    intros n sabs sabs' w w' sd (Hs & _ & _ & Hf & Hc) Hst D Hcfg Hs'.
    split; [exact Hs'|]. split; [apply Hst|].
    split; [exact (stepped_same_data _ _ _ _ Hst D Hcfg)|].
    destruct Hst as (_ & F3 & C3 & _). split; [congruence|]. rewrite C3, Hc. lia.
  Qed.

  (* what the client makes of one command of the emulation, [lhs] being the run of the rest of the call: [ok]
     when no fault is planned for the command; after an injected NO the continuation goes on with [v_no]; BYE
     and silence raise Error *)
  Definition step_result (n : nat) (sabs : sstate) (st : cstate) (lhs : outcome * sworld sstate)
             (k : kont) (v_no : value) (ok : Prop) : Prop :=
    match plan n with
    | FNone => ok
    | FNo => exists st' w', lhs = runS (k st' v_no) w' /\
                            (c_auth st' = c_auth st /\ c_caps st' = c_caps st) /\ tracks (S n) sabs w'
    | _ => exists e w', lhs = (OFail e st, w') /\ (e = ExBye \/ e = ExTimeout) /\
                        same_data sabs (s_peer sstate w')
    end.

  Lemma step_result_send : forall n F verb args nbl ql st k' (k : kont) v_no (w : sworld sstate) sabs (ok : Prop),
    verb_ok verb -> tracks n sabs w -> 1 <= F ->
    (forall st' data, k' st' (Some (bs "NO")) data [] = k st' v_no) ->
    (plan n = FNone -> ok) ->
    step_result n sabs st (runS (send_command F verb args [] nbl ql st k') w) k v_no ok.
  Proof.
    intros n F verb args nbl ql st k' k v_no w sabs ok Hv Ht HF Hk Hok. destruct F as [|f]; [lia|].
    pose proof (tracks_fault _ _ _ Ht) as Hfn. unfold step_result.
    destruct (plan n) eqn:Ep; [exact (Hok eq_refl)| | |].
    all: pose proof Ht as (Hs & Hl & D & _);
      destruct (send_command_faulted f verb args nbl ql st k' w Hv Hs (proj1 Hl) ltac:(rewrite Hfn; discriminate))
        as (w' & c & Hframe & Hrun & Hstream);
      pose proof (fault_frame_stepped _ _ Hl Hframe) as Hst;
      pose proof (stepped_same_data _ _ _ _ Hst D eq_refl) as D';
      rewrite Hfn in Hrun, Hstream.
    - eexists _, w'. split; [rewrite Hrun; cbv zeta; rewrite Hk; reflexivity|].
      split; [split; reflexivity|exact (stepped_tracks n sabs sabs w w' _ Ht Hst D eq_refl (Hstream eq_refl))].
    - exists ExBye, w'. split; [exact Hrun|]. split; [left; reflexivity|exact D'].
    - exists ExTimeout, w'. split; [exact Hrun|]. split; [right; reflexivity|exact D'].
  Qed.

  Lemma step_list : forall n Fu st (w : sworld sstate) sabs (k : kont),
    c_auth st = true -> tracks n sabs w -> names_ok sabs -> length (s_store sabs) < Fu ->
    step_result n sabs st (runS (listscripts Fu st k) w) k VNone
      (exists w', runS (listscripts Fu st k) w =
                  runS (k st (VListing (fst (listing_of sabs)) (snd (listing_of sabs)))) w' /\
                  tracks (S n) sabs w').
  Proof.
    intros n Fu st w sabs k Ha Ht Hn HF.
    rewrite (listscripts_eq Fu st k Ha) at 1.
    apply step_result_send; [apply emulation_verb_ok; cbn [In]; tauto|exact Ht|lia|reflexivity|]. intro Ep.
    pose proof (tracks_fault _ _ _ Ht) as Hfn. rewrite Ep in Hfn.
    pose proof Ht as (Hs & Hl & D & _).
    destruct (listscripts_run Fu st w k Ha Hs Hl Hfn) as (R & Hst).
    { exact (names_ok_same _ _ D Hn). }
    { rewrite (proj1 D). exact HF. }
    eexists. split; [rewrite R, <- (listing_of_same_data _ _ D), <- listing_of_eq; reflexivity|].
    eapply stepped_tracks; [exact Ht|exact Hst|exact D|reflexivity|reflexivity].
  Qed.

  Lemma step_get : forall n Fu name content st (w : sworld sstate) sabs (k : kont),
    c_auth st = true -> tracks n sabs w -> assoc_get name (s_store sabs) = Some content -> 3 <= Fu ->
    step_result n sabs st (runS (getscript Fu name st k) w) k VNone
      (exists w', runS (getscript Fu name st k) w = runS (k st (VBytes (norm content))) w' /\ tracks (S n) sabs w').
  Proof.
    intros n Fu name content st w sabs k Ha Ht Hg HF.
    rewrite (getscript_eq Fu name st k Ha) at 1.
    apply step_result_send; [apply emulation_verb_ok; cbn [In]; tauto|exact Ht|lia|reflexivity|]. intro Ep.
    pose proof (tracks_fault _ _ _ Ht) as Hfn. rewrite Ep in Hfn.
    pose proof Ht as (Hs & Hl & D & _).
    destruct (getscript_run Fu name content st w k Ha Hs Hl Hfn) as (R & Hst); [rewrite (proj1 D); exact Hg|exact HF|].
    eexists. split; [exact R|]. eapply stepped_tracks; [exact Ht|exact Hst|exact D|reflexivity|reflexivity].
  Qed.

  Lemma step_cmd : forall n Fu verb args st (w : sworld sstate) sabs a sabs' (k : kont),
    In verb [bs "PUTSCRIPT"; bs "SETACTIVE"; bs "DELETESCRIPT"] -> tracks n sabs w -> 1 <= Fu ->
    exec_command verb (map decode_arg args) sabs = Some (a, sabs') ->
    step_result n sabs st (runS (simple_cmd Fu verb args st k) w) k (VBool false)
      (exists st' w', runS (simple_cmd Fu verb args st k) w = runS (k st' (VBool (answer_bool a))) w' /\
                      (c_auth st' = c_auth st /\ c_caps st' = c_caps st) /\ tracks (S n) sabs' w').
  Proof.
    intros n Fu verb args st w sabs a sabs' k Hv Ht HF Hex.
    unfold simple_cmd at 1.
    apply step_result_send; [apply emulation_verb_ok; cbn [In] in *; tauto|exact Ht|exact HF|reflexivity|]. intro Ep.
    pose proof (tracks_fault _ _ _ Ht) as Hfn. rewrite Ep in Hfn.
    pose proof Ht as (Hs & Hl & D & _).
    destruct (srv_step_congr _ _ _ _ _ _ D Hex) as (s2 & E2 & Hsd2 & Hcfg).
    destruct (simple_cmd_run Fu verb args st w a s2 k) as (R & Hst);
      [unfold simple_verbs; cbn [In] in *; tauto|exact Hs|exact Hl|exact Hfn|exact E2|exact HF|].
    eexists _, _. split; [exact R|]. split; [apply answer_state_keeps|].
    eapply stepped_tracks; [exact Ht|exact Hst|exact Hsd2|exact Hcfg|reflexivity].
  Qed.

  (* how a call ends: the server holds the data of [sabs]; True / False come with the client's session fields
     kept and the server in step; Error is BYE or a timeout *)
  Definition walk_result (st : cstate) (out : outcome) (w' : sworld sstate) (rs : aresult * sstate) : Prop :=
    same_data (snd rs) (s_peer sstate w') /\
    match fst rs with
    | RError => exists e st', out = OFail e st' /\ (e = ExBye \/ e = ExTimeout)
    | r => exists st' n, out = ODone (VBool (match r with RTrue => true | _ => false end)) st' /\
                         (c_auth st' = c_auth st /\ c_caps st' = c_caps st) /\ tracks n (snd rs) w'
    end.

  Lemma walk_false : forall st st' n w' sabs,
    c_auth st' = c_auth st /\ c_caps st' = c_caps st -> tracks n sabs w' ->
    exists out w'', runS (finish st' (VBool false)) w' = (out, w'') /\ walk_result st out w'' (RFalse, sabs).
  Proof.
    intros st st' n w' sabs K T. eexists _, _. split; [reflexivity|].
    split; [apply T|]. exists st', n. auto.
  Qed.

  (* one command of the emulation, as rename_abs reads it off run_cmd: an injected NO ends the call with False
     (the continuation [k] on [v_no]), BYE and silence with Error; [C] is how the call goes on *)
  Lemma walk_step : forall n sabs st st0 lhs (k : kont) v_no (ok : Prop) verb pargs
                           (C : answer -> sstate -> aresult * sstate),
    step_result n sabs st0 lhs k v_no ok ->
    c_auth st0 = c_auth st /\ c_caps st0 = c_caps st ->
    (forall st' w', runS (k st' v_no) w' = (ODone (VBool false) st', w')) ->
    (ok -> exists out w', lhs = (out, w') /\
             walk_result st out w' (match exec_command verb pargs sabs with
                                    | Some (a, s') => C a s'
                                    | None => (RFalse, sabs)
                                    end)) ->
    exists out w', lhs = (out, w') /\
      walk_result st out w' (match run_cmd (plan n) verb pargs sabs with
                             | CErr => (RError, sabs)
                             | CNo => (RFalse, sabs)
                             | CAns a s' => C a s'
                             end).
  Proof.
    intros n sabs st st0 lhs k v_no ok verb pargs C H (K1 & K2) Hk Hok.
    unfold step_result in H. unfold run_cmd. destruct (plan n).
    - specialize (Hok H). destruct (exec_command verb pargs sabs) as [[a s']|]; exact Hok.
    - destruct H as (st' & w' & R & (K3 & K4) & T). rewrite R, Hk.
      eexists _, _. split; [reflexivity|]. split; [apply T|]. exists st', (S n).
      split; [reflexivity|]. split; [split; congruence|exact T].
    - destruct H as (e & w' & R & K & D). rewrite R. eexists _, _. split; [reflexivity|]. split; [exact D|].
      exists e, st0. split; [reflexivity|exact K].
    - destruct H as (e & w' & R & K & D). rewrite R. eexists _, _. split; [reflexivity|]. split; [exact D|].
      exists e, st0. split; [reflexivity|exact K].
  Qed.

  Lemma walk_cmd : forall n Fu verb args st st0 (w0 : sworld sstate) sabs (k : kont)
                          (CONT : sstate -> aresult * sstate),
    In verb [bs "PUTSCRIPT"; bs "SETACTIVE"; bs "DELETESCRIPT"] ->
    (exists a sabs', exec_command verb (map decode_arg args) sabs = Some (a, sabs') /\ ok_or_no a sabs sabs') ->
    c_auth st0 = c_auth st /\ c_caps st0 = c_caps st -> tracks n sabs w0 -> 1 <= Fu ->
    (forall st' w', runS (k st' (VBool false)) w' = (ODone (VBool false) st', w')) ->
    (forall st' w' sabs', c_auth st' = c_auth st /\ c_caps st' = c_caps st -> tracks (S n) sabs' w' ->
       exists out w'', runS (k st' (VBool true)) w' = (out, w'') /\ walk_result st out w'' (CONT sabs')) ->
    exists out w', runS (simple_cmd Fu verb args st0 k) w0 = (out, w') /\
      walk_result st out w' (match run_cmd (plan n) verb (map decode_arg args) sabs with
                             | CErr => (RError, sabs)
                             | CAns (AnsOK _) s' => CONT s'
                             | _ => (RFalse, sabs)
                             end).
  Proof.
    intros n Fu verb args st st0 w0 sabs k CONT Hv (a & sabs' & Ex & Hshape) (K1 & K2) T HF Hk Hcont.
    apply (walk_step n sabs st st0 _ k (VBool false) _ verb _
             (fun a s' => match a with AnsOK _ => CONT s' | _ => (RFalse, sabs) end)
             (step_cmd n Fu verb args st0 w0 sabs a sabs' k Hv T HF Ex) (conj K1 K2) Hk).
    intros (st' & w' & R & (K3 & K4) & T'). rewrite Ex, R.
    assert (K' : c_auth st' = c_auth st /\ c_caps st' = c_caps st) by (split; congruence).
    destruct Hshape as [(code & ->)|((code & ->) & ->)]; cbn [answer_bool].
    - exact (Hcont st' w' sabs' K' T').
    - rewrite Hk. exact (walk_false st st' (S n) w' sabs K' T').
  Qed.

  Lemma walk_del : forall n Fu old st st0 (w0 : sworld sstate) sabs,
    c_auth st0 = true -> c_auth st0 = c_auth st /\ c_caps st0 = c_caps st -> tracks n sabs w0 -> 1 <= Fu ->
    exists out w',
      runS (deletescript Fu old st0 (fun st1 v => match v with
                                                 | VBool true => finish st1 (VBool true)
                                                 | _ => finish st1 (VBool false)
                                                 end)) w0 = (out, w') /\
      walk_result st out w' (rename_del (plan n) sabs old).
  Proof.
    intros n Fu old st st0 w0 sabs Ha0 K T HF.
    unfold deletescript, auth_required. rewrite Ha0.
    apply (walk_cmd n Fu (bs "DELETESCRIPT") [AStr old] st st0 w0 sabs _ (fun s' => (RTrue, s')));
      [cbn [In]; tauto|exact (exec_del_total old sabs)|exact K|exact T|exact HF|reflexivity|].
    intros st' w' sabs' K' T'. eexists _, _. split; [reflexivity|]. split; [apply T'|]. exists st', (S n). auto.
  Qed.

  Theorem rename_under_plan : forall Fu old new st (w : sworld sstate) s,
    c_auth st = true -> has_cap (bs "VERSION") st = false -> tracks 0 s w ->
    names_ok s -> length (s_store s) < Fu -> 3 <= Fu ->
    exists out w',
      runS (renamescript Fu old new st finish) w = (out, w') /\
      walk_result st out w' (rename_abs plan s old new).
  Proof.
    intros Fu old new st w s Ha Hver T0 Hn HF1 HF3.
    assert (K0 : c_auth st = c_auth st /\ c_caps st = c_caps st) by (split; reflexivity).
    unfold renamescript, auth_required. rewrite Ha, Hver. unfold rename_abs.
    eapply (walk_step 0 s st st); [exact (step_list 0 Fu st w s _ Ha T0 Hn HF1)|exact K0|reflexivity|].
    intros (w1 & R1 & T1). rewrite exec_list, R1. clear R1. unfold listing_of. cbn [fst snd].
    destruct (negb (opt_beq (Some old) (listing_active s)) && negb (mem old (listing_others s))) eqn:Eold;
      [apply (walk_false st _ 1); [split; reflexivity|exact T1]|].
    destruct (opt_beq (Some new) (listing_active s) || mem new (listing_others s)) eqn:Enew;
      [apply (walk_false st _ 1); [split; reflexivity|exact T1]|].
    destruct (In_get_Some _ _ _ (listing_old s old Eold)) as (c & Hget).
    eapply (walk_step 1 s st st); [exact (step_get 1 Fu old c st w1 s _ Ha T1 Hget HF3)|exact K0|reflexivity|].
    intros (w2 & R2 & T2). rewrite exec_get, Hget, R2. clear R2.
    (* PUTSCRIPT new; then SETACTIVE new if the old script was active; then DELETESCRIPT old *)
    unfold putscript, auth_required. rewrite Ha.
    eapply (walk_cmd 2 Fu (bs "PUTSCRIPT") [AStr new; ALit (norm c)] st st w2 s);
      [cbn [In]; tauto|exact (exec_put_total new (norm c) s)|exact K0|exact T2|lia|reflexivity|].
    intros st3 w3 s3 K3 T3.
    assert (Ha3 : c_auth st3 = true) by (destruct K3; congruence).
    destruct (opt_beq (listing_active s) (Some old)); [|exact (walk_del 3 Fu old st st3 w3 s3 Ha3 K3 T3 ltac:(lia))].
    unfold setactive, auth_required. rewrite Ha3.
    eapply (walk_cmd 3 Fu (bs "SETACTIVE") [AStr new] st st3 w3 s3);
      [cbn [In]; tauto|exact (exec_set_total new s3)|exact K3|exact T3|lia|reflexivity|].
    intros st4 w4 s4 K4 T4.
    exact (walk_del 4 Fu old st st4 w4 s4 ltac:(destruct K4; congruence) K4 T4 ltac:(lia)).
  Qed.
End Plan.

Lemma rename_abs_no_fault : forall s old new, fst (rename_abs (fun _ => FNone) s old new) <> RError.
Proof.
  intros s old new. unfold rename_abs, rename_del, run_cmd.
  (* RError stands only in the CErr arms, and run_cmd FNone is never CErr *)
  split_matches; cbn [fst]; discriminate.
Qed.

Theorem rename_emulated_refines_st : forall F old new st (w : sworld sstate) s,
  c_auth st = true -> has_cap (bs "VERSION") st = false -> ok_world w -> same_data s (s_peer sstate w) ->
  names_ok s -> length (s_store s) < F -> 3 <= F ->
  exists out w',
    runS (renamescript F old new st finish) w = (out, w') /\
    aresult_of out = Some (fst (rename_abs (fun _ => FNone) s old new)) /\
    ok_world w' /\ same_data (snd (rename_abs (fun _ => FNone) s old new)) (s_peer sstate w') /\
    c_auth (outcome_state out) = true /\ c_caps (outcome_state out) = c_caps st.
Proof.
  intros F old new st w s Ha Hver (Hs & Hc) D0 Hn HF1 HF3.
  destruct (conforming_live _ Hc) as (Hl & _).
  destruct (rename_under_plan [] (s_count (s_peer sstate w)) F old new st w s Ha Hver) as (out & w' & R & D & Hres);
    try assumption.
  { unfold tracks. repeat split; try assumption; try apply Hl; try apply D0; [apply Hc|lia]. }
  exists out, w'. split; [exact R|].
  change (plan [] (s_count (s_peer sstate w))) with (fun _ : nat => FNone) in *.
  pose proof (rename_abs_no_fault s old new) as Hne.
  destruct (fst (rename_abs (fun _ => FNone) s old new)); [| |congruence];
    destruct Hres as (st' & n & -> & (K1 & K2) & (Ts & Tl & _ & Tf & _));
    (split; [reflexivity|]); (split; [split; [exact Ts|destruct Tl; repeat split; assumption]|]);
    (split; [exact D|]); cbn [outcome_state]; split; congruence.
Qed.

Theorem rename_emulated_refines : forall F old new st (w : sworld sstate),
  c_auth st = true -> has_cap (bs "VERSION") st = false -> ok_world w -> names_ok (s_peer sstate w) ->
  length (s_store (s_peer sstate w)) < F -> 3 <= F ->
  let s := s_peer sstate w in
  exists out w',
    runS (renamescript F old new st finish) w = (out, w') /\
    aresult_of out = Some (fst (rename_abs (fun _ => FNone) s old new)) /\
    ok_world w' /\ same_data (snd (rename_abs (fun _ => FNone) s old new)) (s_peer sstate w').
Proof.
  intros F old new st w Ha Hver Hw Hn HF1 HF3 s.
  destruct (rename_emulated_refines_st F old new st w s Ha Hver Hw (same_data_refl _) Hn HF1 HF3) as (out & w' & R & A & W & D & _).
  exists out, w'. auto.
Qed.

Print Assumptions rename_emulated_refines.
