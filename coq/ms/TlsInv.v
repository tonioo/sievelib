(* The TLS flag of the reference server is changed by the handshake only: no command does it, so no client
   operation that neither connects nor wraps the socket does.  Needed to carry "the capability text the server
   writes" through whole sessions (ms/SessionRename.v). *)
From Coq Require Import String.
From Coq Require Import List NArith Bool Arith Lia.
From SV Require Import Bytes Base64 Client Transport Server Session ProgFacts SessionFacts.
Import ListNotations.
Local Open Scope nat_scope.


Lemma sbc_tls : forall s s', same_but_choices s s' -> Server.s_tls s' = Server.s_tls s.
Proof. intros s s' (ch & ->). reflexivity. Qed.

Lemma reply_bytes_tls : forall st code text s, Server.s_tls (snd (reply_bytes st code text s)) = Server.s_tls s.
Proof. intros. rewrite reply_bytes_eq. apply sbc_tls, pick_sbc. Qed.

Lemma render_answer_tls : forall a s, Server.s_tls (snd (render_answer a s)) = Server.s_tls s.
Proof. intros. apply sbc_tls, render_answer_sbc. Qed.

Lemma exec_tls : forall verb pargs s a s2, exec_command verb pargs s = Some (a, s2) -> Server.s_tls s2 = Server.s_tls s.
Proof. intros verb pargs s a s2 H. destruct (exec_frame _ _ _ _ _ H) as (st & ac & ->). reflexivity. Qed.

Lemma handle_tls : forall c s, Server.s_tls (snd (handle c s)) = Server.s_tls s.
Proof.
  (* every leaf of handle is reply_bytes, render_answer or a pair, on a state built from s by upd_count,
     upd_bad, upd_authed, upd_cmds and, for a script command, exec_command *)
  intros c s. unfold handle. cbv zeta.
  destruct c as [| |verb args rest|str rest];
    try (destruct (exec_command verb args (upd_cmds (verb, args) (upd_count s))) as [[an s']|] eqn:Ex;
         [apply exec_tls in Ex|]);
    split_matches; rewrite ?render_answer_tls, ?reply_bytes_tls; try exact Ex; reflexivity.
Qed.

Lemma feed_loop_tls : forall fuel s out, Server.s_tls (snd (feed_loop fuel s out)) = Server.s_tls s.
Proof.
  induction fuel as [|f IH]; intros s out; [reflexivity|].
  cbn [feed_loop]. destruct (parse_command (s_in s)) as [| |v a rest|str rest].
  - reflexivity.
  - match goal with |- context [reply_bytes ?a ?b ?c ?s0] =>
      pose proof (reply_bytes_tls a b c s0) as R; destruct (reply_bytes a b c s0) as [r s'] end.
    cbn [snd] in R. rewrite IH, R. reflexivity.
  - pose proof (handle_tls (PCmd v a rest) (upd_in rest s)) as R.
    destruct (handle (PCmd v a rest) (upd_in rest s)) as [r s']. cbn [snd] in R. rewrite IH, R. reflexivity.
  - pose proof (handle_tls (PCont str rest) (upd_in rest s)) as R.
    destruct (handle (PCont str rest) (upd_in rest s)) as [r s']. cbn [snd] in R. rewrite IH, R. reflexivity.
Qed.

Theorem srv_react_tls : forall s d, Server.s_tls (fst (srv_react s d)) = Server.s_tls s.
Proof.
  intros s d. unfold srv_react.
  pose proof (feed_loop_tls (S (length (s_in (upd_in (s_in s ++ d) s)))) (upd_in (s_in s ++ d) s) []) as R.
  destruct (feed_loop _ _ _) as [out s2]. cbn [fst snd] in *. exact R.
Qed.

Fixpoint no_conn (p : prog) : Prop :=
  match p with
  | Done _ _ | Fail _ _ => True
  | RdLine _ k => forall l, no_conn (k l)
  | RdBlock _ _ k => forall b, no_conn (k b)
  | Send _ k => no_conn k
  | Connect _ _ | TlsWrap _ _ => False
  | Mark _ k => no_conn k
  end.

Theorem no_conn_tls : forall p (w : sworld sstate),
  no_conn p -> Server.s_tls (s_peer sstate (snd (runS p w))) = Server.s_tls (s_peer sstate w).
Proof.
  induction p as [v st|e st|st k IH|st n k IH|d k IH|st k IH|st k IH|g k IH]; intros w H; cbn [interp_s no_conn] in *.
  - reflexivity.
  - reflexivity.
  - destruct (split_crlf (s_stream sstate w)) as [[line rest]|]; [|reflexivity]. rewrite (IH line _ (H line)). reflexivity.
  - destruct (n <=? blen (s_stream sstate w))%N; [|reflexivity]. rewrite (IH _ _ (H _)). reflexivity.
  - pose proof (srv_react_tls (s_peer sstate w) d) as R.
    destruct (srv_react (s_peer sstate w) d) as [s' reply]. cbn [fst] in R. rewrite (IH _ H). cbn [s_peer]. exact R.
  - contradiction.
  - contradiction.
  - rewrite (IH _ H). reflexivity.
Qed.

Lemma no_conn_closed : closed no_conn (fun _ => True) (fun _ => True).
Proof. split; cbn; auto. Qed.

Theorem no_conn_run_op : forall F o st,
  match o with OConnect _ _ _ _ _ => True | _ => no_conn (run_op F o st) end.
Proof.
  intros F o st.
  pose proof (Q_script_op _ _ _ no_conn_closed (fun _ _ _ _ _ _ => I) F o st I (fun _ _ _ => I)) as H.
  destruct o; try exact H; cbn [run_op].
  - unfold logout. apply (Q_send_command _ _ _ no_conn_closed); auto.
  - unfold capability. apply (Q_send_command _ _ _ no_conn_closed); auto.
Qed.

Corollary run_op_tls : forall F o st (w : sworld sstate),
  match o with OConnect _ _ _ _ _ => True
  | _ => Server.s_tls (s_peer sstate (snd (runS (run_op F o st) w))) = Server.s_tls (s_peer sstate w) end.
Proof.
  intros F o st w. pose proof (no_conn_run_op F o st) as H.
  destruct o; try exact I; apply no_conn_tls; exact H.
Qed.

Print Assumptions run_op_tls.
