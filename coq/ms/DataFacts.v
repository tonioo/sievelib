(* DataFacts.v — the data lines of a reply are assembled exactly (C15 / C17: the assembling step of
   __read_response).

   For LISTSCRIPTS: whichever of its two encodings the server chooses for each name (quoted string or literal
   {n}), the client's __read_response, run by the stream semantics on
       entry_1 ... entry_n  status-reply  rest
   hands its continuation exactly the canonical listing of DecodeFacts ([listing_resp]: every name as a
   quoted string, " ACTIVE" kept), consumes exactly these octets, and reports the status as for a reply
   without data.  With [DecodeFacts.listscripts_decode] this gives the names and the active script.
   For GETSCRIPT: the script, sent quoted or as a literal, with or without the extra CRLF some servers send
   after a literal, is assembled as [quote body ++ CRLF ...] from which [DecodeFacts.getscript_value] recovers
   the lines of the body. *)
From Coq Require Import String List Arith NArith Bool Lia.
From SV Require Import Bytes BytesFacts Client Server Transport WriterFacts StatusFacts DecodeFacts.
Import ListNotations.
Open Scope N_scope.

Lemma name_ok_not_crlf_end : forall l, name_ok l -> ends_with CRLF l = false.
Proof.
  intros l [_ H10]. unfold ends_with, CRLF. cbn [rev app].
  destruct (rev l) as [|a r] eqn:E; [reflexivity|].
  cbn [starts_with]. destruct (10 =? a) eqn:Ea; [|reflexivity]. exfalso.
  apply N.eqb_eq in Ea. subst a.
  assert (Hin : contains_byte 10 l = true).
  { rewrite <- (rev_involutive l), E. cbn [rev]. rewrite contains_byte_app. cbn. rewrite orb_true_r. reflexivity. }
  congruence.
Qed.

Lemma ends_quote_not_crlf : forall a b, ends_with CRLF (a ++ quote b) = false.
Proof.
  intros a b. unfold ends_with, CRLF, quote. cbn [rev app].
  rewrite rev_app_distr. cbn [rev]. rewrite rev_app_distr. cbn [rev app]. reflexivity.
Qed.

(* a data line as __read_line hands it over: not a literal header, not a status line *)
Definition data_line (l : bytes) : Prop :=
  line_safe l /\ (l = [] \/ scan_size l = None /\ scan_status l = None).

Lemma read_line_k_data : forall l st k, data_line l -> read_line_k st k l = k st (RL_line l).
Proof.
  intros l st k [_ [->|[Hsz Hst]]]; [reflexivity|].
  destruct l; [reflexivity|]. cbn [read_line_k]. rewrite Hsz, Hst. reflexivity.
Qed.

Section Run.
  Variable P : Type.
  Variable react : P -> bytes -> P * bytes.
  Variable oc : P -> option (P * bytes).
  Variable ot : P -> option (P * bytes).

  Notation run := (interp_s P react oc ot).
  Notation steps := (steps P react oc ot).

  Lemma read_response_empty_steps : forall f nbl ql resp cpt st k,
    steps (read_response (S f) nbl ql resp cpt st k) CRLF (read_response f nbl ql resp cpt st k).
  Proof.
    intros f nbl ql resp cpt st k w rest E.
    rewrite read_response_S, (steps_read_line P react oc ot st _ [] (Forall_nil _) w rest E). reflexivity.
  Qed.

  Lemma read_response_line_steps : forall l f ql resp cpt st k,
    data_line l -> l <> [] ->
    steps (read_response (S f) None ql resp cpt st k) (l ++ CRLF)
          (read_response f None ql (resp ++ l ++ CRLF) (S cpt) st k).
  Proof.
    intros l f ql resp cpt st k Hl Hne w rest E.
    rewrite read_response_S, (steps_read_line P react oc ot st _ l (proj1 Hl) w rest E).
    rewrite read_line_k_data by exact Hl. destruct l; [congruence | reflexivity].
  Qed.

  (* a literal whose octets b end with CRLF: the quoted block closes the line *)
  Lemma read_response_lit_crlf_steps : forall b f nbl resp cpt st k,
    ends_with CRLF b = true ->
    steps (read_response (S f) nbl true resp cpt st k) ((lit_hdr (blen b) ++ CRLF) ++ b)
          (read_response f nbl true (resp ++ quote b ++ CRLF) cpt st k).
  Proof.
    intros b f nbl resp cpt st k Hb w rest E. rewrite <- app_assoc in E.
    rewrite read_response_S, (steps_read_line P react oc ot st _ _ (lit_hdr_safe _) w _ E).
    unfold read_line_k. rewrite scan_size_lit_hdr. unfold lit_hdr at 1. cbv beta iota.
    rewrite (steps_RdBlock P react oc ot st _ b _ rest) by reflexivity. cbv beta zeta.
    rewrite Hb, (app_assoc resp), ends_with_app, <- app_assoc. reflexivity.
  Qed.

  (* a literal whose octets do not end with CRLF: the rest of the line, l, is appended *)
  Lemma read_response_lit_line_steps : forall b l f nbl resp cpt st k,
    ends_with CRLF b = false -> data_line l ->
    steps (read_response (S f) nbl true resp cpt st k) (((lit_hdr (blen b) ++ CRLF) ++ b) ++ l ++ CRLF)
          (read_response f nbl true (resp ++ quote b ++ l ++ CRLF) cpt st k).
  Proof.
    intros b l f nbl resp cpt st k Hb Hl w rest E. rewrite <- !app_assoc, (app_assoc (lit_hdr _)) in E.
    rewrite read_response_S, (steps_read_line P react oc ot st _ _ (lit_hdr_safe _) w _ E).
    unfold read_line_k at 1. rewrite scan_size_lit_hdr. unfold lit_hdr at 1. cbv beta iota.
    rewrite (steps_RdBlock P react oc ot st _ b _ (l ++ CRLF ++ rest)) by reflexivity. cbv beta zeta.
    rewrite Hb, app_nil_r, ends_quote_not_crlf.
    rewrite (steps_read_line P react oc ot st _ l (proj1 Hl) _ rest) by (rewrite <- app_assoc; reflexivity).
    rewrite read_line_k_data by exact Hl.
    rewrite <- !app_assoc. reflexivity.
  Qed.

  (* what the server writes for one script of the listing *)
  Definition entry_bytes (e : bytes * bool) (enc : enc) : bytes :=
    render_string enc (fst e) ++ (if snd e then bs " ACTIVE" else []) ++ CRLF.

  Definition active_suffix (b : bool) : bytes := if b then 32 :: bs_ACTIVE else [].

  Lemma active_suffix_line : forall b, data_line (active_suffix b).
  Proof.
    intros []; (split; [|auto]).
    - repeat (apply line_safe_cons; [apply inl_lit; reflexivity|]). constructor.
    - constructor.
  Qed.

  Lemma read_response_entry : forall e enc f resp cpt st k,
    name_ok (fst e) ->
    exists cpt',
      steps (read_response (S f) None true resp cpt st k) (entry_bytes e enc)
            (read_response f None true (resp ++ entry_line e ++ CRLF) cpt' st k).
  Proof.
    intros [name act] enc f resp cpt st k Hn. cbn [fst] in Hn.
    unfold entry_bytes, entry_line. cbn [fst snd]. fold (active_suffix act).
    change (if act then bs " ACTIVE" else []) with (active_suffix act).
    rewrite render_string_cases. destruct (sent_quoted enc name) eqn:Q.
    - exists (S cpt). rewrite app_assoc. apply read_response_line_steps; [|destruct name; discriminate].
      split; [apply line_safe_app; [apply quote_safe, name_ok_line_safe, Hn | apply active_suffix_line]|].
      right. split; reflexivity.
    - exists cpt. rewrite <- (app_assoc (quote name)).
      apply read_response_lit_line_steps; [apply name_ok_not_crlf_end, Hn | apply active_suffix_line].
  Qed.

  Fixpoint listing_stream (es : list ((bytes * bool) * enc)) : bytes :=
    match es with
    | [] => []
    | (e, c) :: t => entry_bytes e c ++ listing_stream t
    end.

  Lemma read_response_entries : forall es f resp cpt st k,
    Forall (fun x => name_ok (fst (fst x))) es ->
    exists cpt',
      steps (read_response (length es + f) None true resp cpt st k) (listing_stream es)
            (read_response f None true (resp ++ listing_resp (map fst es)) cpt' st k).
  Proof.
    induction es as [|[e c] es IH]; intros f resp cpt st k Hall.
    - exists cpt. cbn. rewrite app_nil_r. apply steps_refl.
    - inversion Hall as [|x xs Hx Hxs]; subst. cbn [fst] in Hx.
      destruct (read_response_entry e c (length es + f) resp cpt st k Hx) as (cpt1 & H1).
      destruct (IH f (resp ++ entry_line e ++ CRLF) cpt1 st k Hxs) as (cpt2 & H2).
      exists cpt2. cbn [listing_stream length map fst plus]. rewrite listing_resp_cons.
      replace (resp ++ entry_line e ++ 13 :: 10 :: listing_resp (map fst es))
        with ((resp ++ entry_line e ++ CRLF) ++ listing_resp (map fst es))
        by (unfold CRLF; rewrite <- !app_assoc; reflexivity).
      exact (steps_trans _ _ _ _ _ _ _ _ _ H1 H2).
  Qed.

  Theorem read_response_listing : forall es r f resp cpt st k w rest,
    Forall (fun x => name_ok (fst (fst x))) es -> reply_ok r ->
    s_stream P w = listing_stream es ++ render_reply r ++ rest ->
    run (read_response (S (length es + f)) None true resp cpt st k) w =
    match r_status r with
    | StOK => run (k st (Some (bs "OK")) (data_of r) (resp ++ listing_resp (map fst es))) (s_set P rest w)
    | StNO => run (k (set_err (code_of r) (text_of r) st) (Some (bs "NO")) (data_of r)
                     (resp ++ listing_resp (map fst es))) (s_set P rest w)
    | StBYE => (OFail ExBye st, s_set P (after_line r ++ rest) w)
    end.
  Proof.
    intros es r f resp cpt st k w rest Hall Hr E.
    destruct (read_response_entries es (S f) resp cpt st k Hall) as (cpt' & H).
    rewrite <- plus_n_Sm in H. exact (steps_reply P react oc ot _ _ r f _ _ _ _ st k w rest H Hr E).
  Qed.

  (* [eol]: the line end after the string; a server may omit it after a literal that ends with CRLF *)
  Lemma read_response_body : forall c enc eol f st k,
    (eol = CRLF \/ (eol = [] /\ sent_quoted enc c = false /\ ends_with CRLF c = true)) ->
    exists f' cpt,
      steps (read_response (S (S (S f))) None true [] 0 st k) (render_string enc c ++ eol)
            (read_response (S f') None true (quote c ++ CRLF) cpt st k).
  Proof.
    intros c enc eol f st k Heol. rewrite render_string_cases. destruct (sent_quoted enc c) eqn:Q.
    - destruct Heol as [->|(_ & X & _)]; [|congruence].
      exists (S f), 1%nat. apply (read_response_line_steps (quote c) (S (S f)) true [] 0%nat st k); [|discriminate].
      split; [apply quote_safe, (sent_quoted_safe enc c Q) | right; split; reflexivity].
    - destruct (ends_with CRLF c) eqn:Ec.
      + destruct Heol as [->|(-> & _)].
        * exists f, 0%nat. eapply steps_trans; [apply (read_response_lit_crlf_steps c (S (S f))); exact Ec | apply read_response_empty_steps].
        * exists (S f), 0%nat. rewrite app_nil_r. apply (read_response_lit_crlf_steps c (S (S f))). exact Ec.
      + destruct Heol as [->|(_ & _ & X)]; [|congruence].
        exists (S f), 0%nat. apply (read_response_lit_line_steps c [] (S (S f))); [exact Ec | split; [constructor | auto]].
  Qed.

  Theorem read_response_script : forall c enc eol r f st k w rest,
    reply_ok r ->
    (eol = CRLF \/ (eol = [] /\ sent_quoted enc c = false /\ ends_with CRLF c = true)) ->
    s_stream P w = render_string enc c ++ eol ++ render_reply r ++ rest ->
    exists tail,
      run (read_response (S (S (S f))) None true [] 0 st k) w =
      match r_status r with
      | StOK => run (k st (Some (bs "OK")) (data_of r) (quote c ++ tail)) (s_set P rest w)
      | StNO => run (k (set_err (code_of r) (text_of r) st) (Some (bs "NO")) (data_of r) (quote c ++ tail)) (s_set P rest w)
      | StBYE => (OFail ExBye st, s_set P (after_line r ++ rest) w)
      end.
  Proof.
    intros c enc eol r f st k w rest Hr Heol E. exists CRLF. rewrite app_assoc in E.
    destruct (read_response_body c enc eol f st k Heol) as (f' & cpt & H).
    exact (steps_reply P react oc ot _ _ r f' _ _ _ _ st k w rest H Hr E).
  Qed.
End Run.

Print Assumptions read_response_listing.
Print Assumptions read_response_script.
