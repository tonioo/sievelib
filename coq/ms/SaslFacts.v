(* SaslFacts.v — facts about the SASL client messages (Client.v) and the server-side
   decoders (Server.v, Base64.v): base64 round trip and alphabet, PLAIN / OAUTHBEARER
   message exactness, gs2 saslname round trip, and the mechanism selection spec. *)
From Coq Require Import List NArith ZArith Bool Lia.
From SV Require Import Bytes BytesFacts Base64 Client Server.
Import ListNotations.
Open Scope N_scope.

(* lia decides goals with / and mod by constants *)
#[local] Ltac Zify.zify_post_hook ::= Z.to_euclidean_division_equations.

Lemma range_spec : forall lo hi c, reflect (lo <= c <= hi) ((lo <=? c) && (c <=? hi)).
Proof.
  intros lo hi c. destruct (lo <=? c) eqn:A; [destruct (c <=? hi) eqn:B|]; constructor;
    [apply N.leb_le in A, B | apply N.leb_gt in B | apply N.leb_gt in A]; lia.
Qed.

(* the four ranges of the alphabet do not overlap *)
Lemma b64_val_char : forall n, n < 64 -> b64_val (b64_char n) = Some n.
Proof.
  intros n Hn. unfold b64_char, b64_val.
  destruct (N.ltb_spec n 26);
    [|destruct (N.ltb_spec n 52); [|destruct (N.ltb_spec n 62); [|destruct (N.eqb_spec n 62)]]].
  - destruct (range_spec 65 90 (65 + n)); [f_equal|]; lia.
  - destruct (range_spec 65 90 (97 + (n - 26))); [lia|].
    destruct (range_spec 97 122 (97 + (n - 26))); [f_equal|]; lia.
  - destruct (range_spec 65 90 (48 + (n - 52))); [lia|].
    destruct (range_spec 97 122 (48 + (n - 52))); [lia|].
    destruct (range_spec 48 57 (48 + (n - 52))); [f_equal|]; lia.
  - subst n. reflexivity.
  - assert (n = 63) by lia. subst n. reflexivity.
Qed.

Lemma b64_val_61 : b64_val 61 = None.
Proof. reflexivity. Qed.

Lemma b64_char_not_pad : forall n, n < 64 -> (b64_char n =? 61) = false.
Proof.
  intros n Hn. apply N.eqb_neq. intros E.
  pose proof (b64_val_char n Hn) as H. rewrite E, b64_val_61 in H. discriminate.
Qed.

(* DQ, BSL, CR, LF, NUL: the bytes that quote escapes or that send prepare_arg to a literal; a string without
   them goes on the wire between double quotes as it is *)
Definition b64_safe (c : N) : Prop :=
  c <> 34 /\ c <> 92 /\ c <> 13 /\ c <> 10 /\ c <> 0.

Lemma b64_char_safe : forall n, b64_safe (b64_char n).
Proof.
  intros n. unfold b64_char, b64_safe.
  destruct (n <? 26) eqn:E1; [apply N.ltb_lt in E1 | apply N.ltb_ge in E1]; [lia|].
  destruct (n <? 52) eqn:E2; [apply N.ltb_lt in E2 | apply N.ltb_ge in E2]; [lia|].
  destruct (n <? 62) eqn:E3; [apply N.ltb_lt in E3 | apply N.ltb_ge in E3]; [lia|].
  destruct (n =? 62); lia.
Qed.

Lemma pad_safe : b64_safe 61.
Proof. unfold b64_safe. lia. Qed.

Lemma list_ind3 {A : Type} (P : list A -> Prop) :
  P [] -> (forall a, P [a]) -> (forall a b, P [a; b]) ->
  (forall a b c t, P t -> P (a :: b :: c :: t)) ->
  forall l, P l.
Proof.
  intros H0 H1 H2 H3.
  fix IH 1. intros [|a [|b [|c t]]].
  - exact H0.
  - apply H1.
  - apply H2.
  - apply H3. apply IH.
Qed.

Lemma b64_encode_1 : forall a,
  b64_encode [a] = [b64_char (a / 4); b64_char ((a mod 4) * 16); 61; 61].
Proof. reflexivity. Qed.

Lemma b64_encode_2 : forall a b,
  b64_encode [a; b] =
  [b64_char (a / 4); b64_char ((a mod 4) * 16 + b / 16); b64_char ((b mod 16) * 4); 61].
Proof. reflexivity. Qed.

Lemma b64_encode_3 : forall a b c t,
  b64_encode (a :: b :: c :: t) =
  b64_char (a / 4) :: b64_char ((a mod 4) * 16 + b / 16)
  :: b64_char ((b mod 16) * 4 + c / 64) :: b64_char (c mod 64) :: b64_encode t.
Proof. reflexivity. Qed.

Lemma b64_decode_4 : forall w x y z,
  b64_decode [w; x; y; z] =
  match b64_val w, b64_val x with
  | Some p, Some q =>
      if (y =? 61) && (z =? 61) then
        if q mod 16 =? 0 then Some [p * 4 + q / 16] else None
      else
        match b64_val y with
        | Some r =>
            if z =? 61 then
              if r mod 4 =? 0 then Some [p * 4 + q / 16; (q mod 16) * 16 + r / 4] else None
            else
              match b64_val z with
              | Some s => Some [p * 4 + q / 16; (q mod 16) * 16 + r / 4; (r mod 4) * 64 + s]
              | None => None
              end
        | None => None
        end
  | _, _ => None
  end.
Proof. reflexivity. Qed.

Lemma b64_decode_more : forall w x y z u t,
  b64_decode (w :: x :: y :: z :: u :: t) =
  match b64_val w, b64_val x, b64_val y, b64_val z, b64_decode (u :: t) with
  | Some p, Some q, Some r, Some s, Some rest =>
      Some (p * 4 + q / 16 :: (q mod 16) * 16 + r / 4 :: (r mod 4) * 64 + s :: rest)
  | _, _, _, _, _ => None
  end.
Proof. reflexivity. Qed.

Lemma b64_encode_nil_inv : forall l, b64_encode l = [] -> l = [].
Proof. intros [|a [|b [|c t]]]; [reflexivity | discriminate ..]. Qed.

Theorem b64_roundtrip : forall l,
  Forall (fun c => c < 256) l -> b64_decode (b64_encode l) = Some l.
Proof.
  induction l as [|a|a b|a b c t IH] using list_ind3; intros HF.
  - reflexivity.
  - inversion_clear HF as [|? ? Ha _].
    rewrite b64_encode_1, b64_decode_4.
    rewrite !b64_val_char by lia.
    cbn [N.eqb Pos.eqb andb].
    replace ((a mod 4) * 16 mod 16 =? 0) with true by (symmetry; apply N.eqb_eq; lia).
    do 2 f_equal. lia.
  - inversion_clear HF as [|? ? Ha HF']. inversion_clear HF' as [|? ? Hb _].
    rewrite b64_encode_2, b64_decode_4.
    rewrite !b64_val_char by lia.
    rewrite (b64_char_not_pad ((b mod 16) * 4)) by lia.
    cbn [N.eqb Pos.eqb andb].
    replace ((b mod 16) * 4 mod 4 =? 0) with true by (symmetry; apply N.eqb_eq; lia).
    f_equal. f_equal; [lia|]. f_equal. lia.
  - inversion_clear HF as [|? ? Ha HF']. inversion_clear HF' as [|? ? Hb HF].
    inversion_clear HF as [|? ? Hc Ht]. specialize (IH Ht).
    rewrite b64_encode_3.
    destruct (b64_encode t) as [|u t'] eqn:Et.
    + apply b64_encode_nil_inv in Et. subst t.
      rewrite b64_decode_4.
      rewrite !b64_val_char by lia.
      rewrite (b64_char_not_pad ((b mod 16) * 4 + c / 64)) by lia.
      rewrite (b64_char_not_pad (c mod 64)) by lia.
      cbn [andb].
      f_equal. f_equal; [lia|]. f_equal; [lia|]. f_equal. lia.
    + rewrite b64_decode_more, IH.
      rewrite !b64_val_char by lia.
      f_equal. f_equal; [lia|]. f_equal; [lia|]. f_equal. lia.
Qed.

Lemma b64_alphabet_all : forall l, Forall b64_safe (b64_encode l).
Proof.
  induction l as [|a|a b|a b c t IH] using list_ind3.
  - constructor.
  - rewrite b64_encode_1.
    repeat constructor; try apply b64_char_safe; try apply pad_safe.
  - rewrite b64_encode_2.
    repeat (apply Forall_cons || apply Forall_nil); try apply b64_char_safe; apply pad_safe.
  - rewrite b64_encode_3.
    repeat apply Forall_cons; try apply b64_char_safe. exact IH.
Qed.

Theorem b64_alphabet : forall l,
  Forall (fun c => c < 256) l ->
  Forall (fun c => c <> 34 /\ c <> 92 /\ c <> 13 /\ c <> 10 /\ c <> 0) (b64_encode l).
Proof. intros l _. exact (b64_alphabet_all l). Qed.

Lemma split_nul_clean : forall x cur,
  contains_byte 0 x = false -> split_nul x cur = [rev cur ++ x].
Proof.
  induction x as [|c x IH]; intros cur H.
  - cbn [split_nul]. rewrite app_nil_r. reflexivity.
  - cbn [contains_byte] in H. apply orb_false_iff in H. destruct H as [Hc Hx].
    cbn [split_nul]. rewrite Hc, (IH _ Hx). cbn [rev]. rewrite <- app_assoc. reflexivity.
Qed.

Lemma split_nul_app : forall x rest cur,
  contains_byte 0 x = false ->
  split_nul (x ++ 0 :: rest) cur = (rev cur ++ x) :: split_nul rest [].
Proof.
  induction x as [|c x IH]; intros rest cur H.
  - cbn [app split_nul]. rewrite N.eqb_refl, app_nil_r. reflexivity.
  - cbn [contains_byte] in H. apply orb_false_iff in H. destruct H as [Hc Hx].
    cbn [app split_nul]. rewrite Hc, (IH _ _ Hx). cbn [rev]. rewrite <- app_assoc. reflexivity.
Qed.

Theorem plain_exact : forall authz login pw,
  contains_byte 0 authz = false -> contains_byte 0 login = false ->
  contains_byte 0 pw = false ->
  split_nul (authz ++ [0] ++ login ++ [0] ++ pw) [] = [authz; login; pw].
Proof.
  intros authz login pw Ha Hl Hp. cbn [app].
  rewrite (split_nul_app _ _ _ Ha), (split_nul_app _ _ _ Hl), (split_nul_clean _ _ Hp).
  reflexivity.
Qed.

(* unsaslname on a head byte that is not "=": the nested literal patterns all fall through *)
Lemma unsaslname_other : forall c t,
  c <> 61 ->
  unsaslname (c :: t) =
  if (c =? 61) || (c =? 44) then None
  else match unsaslname t with Some r => Some (c :: r) | None => None end.
Proof.
  intros c t Hc.
  destruct c as [|p]; [reflexivity|].
  do 6 (destruct p as [p|p|]; try reflexivity).
  all: try (exfalso; apply Hc; reflexivity).
Qed.

Lemma unsaslname_eq : forall t,
  unsaslname (61 :: 51 :: 68 :: t) =
  match unsaslname t with Some r => Some (61 :: r) | None => None end.
Proof. reflexivity. Qed.

Lemma unsaslname_comma : forall t,
  unsaslname (61 :: 50 :: 67 :: t) =
  match unsaslname t with Some r => Some (44 :: r) | None => None end.
Proof. reflexivity. Qed.

Theorem saslname_roundtrip : forall l, unsaslname (saslname l) = Some l.
Proof.
  induction l as [|c l IH]; [reflexivity|].
  cbn [saslname].
  destruct (c =? 61) eqn:E1.
  { apply N.eqb_eq in E1. subst c. rewrite unsaslname_eq, IH. reflexivity. }
  destruct (c =? 44) eqn:E2.
  { apply N.eqb_eq in E2. subst c. rewrite unsaslname_comma, IH. reflexivity. }
  rewrite unsaslname_other by (apply N.eqb_neq; exact E1).
  rewrite E1, E2, IH. reflexivity.
Qed.

Theorem saslname_no_comma : forall l, contains_byte 44 (saslname l) = false.
Proof.
  induction l as [|c l IH]; [reflexivity|].
  cbn [saslname].
  destruct (c =? 61) eqn:E1.
  { cbn [contains_byte]. rewrite IH. reflexivity. }
  destruct (c =? 44) eqn:E2.
  { cbn [contains_byte]. rewrite IH. reflexivity. }
  cbn [contains_byte]. rewrite E2, IH. reflexivity.
Qed.

Lemma oauth_token_unfold : forall login pw,
  oauth_token login pw =
  110 :: 44 :: 97 :: 61 ::
    (saslname login ++ 44 :: 1 ::
       97 :: 117 :: 116 :: 104 :: 61 :: 66 :: 101 :: 97 :: 114 :: 101 :: 114 :: 32 ::
       (pw ++ [1; 1])).
Proof. reflexivity. Qed.

Lemma decode_oauth_unfold : forall l,
  decode_oauth l =
  if starts_with [110; 44; 97; 61] l then
    let r := skipn 4 l in
    let name := take_while (fun c => negb (c =? 44)) r in
    let r2 := drop_while (fun c => negb (c =? 44)) r in
    match r2 with
    | 44 :: 1 :: r3 =>
        if starts_with [97; 117; 116; 104; 61; 66; 101; 97; 114; 101; 114; 32] r3 then
          let tok := skipn 12 r3 in
          if ends_with [1; 1] tok then
            match unsaslname name with
            | Some n => Some (n, firstn (List.length tok - 2) tok)
            | None => None
            end
          else None
        else None
    | _ => None
    end
  else None.
Proof. reflexivity. Qed.

(* holds for every login and every token: the token end is found from the right, so
   octets 1 (or "," or "=") inside the token are harmless *)
Theorem oauth_exact : forall login pw,
  decode_oauth (oauth_token login pw) = Some (login, pw).
Proof.
  intros login pw. rewrite oauth_token_unfold, decode_oauth_unfold.
  cbn [starts_with N.eqb Pos.eqb andb skipn].
  cbv zeta.
  assert (Hs : Forall (fun c => negb (c =? 44) = true) (saslname login)).
  { pose proof (saslname_no_comma login) as H. apply contains_byte_Forall in H.
    eapply Forall_impl; [|exact H]. intros c Hc. apply N.eqb_neq in Hc. rewrite Hc. reflexivity. }
  rewrite (take_while_app_stop _ _ 44 _ Hs eq_refl), (drop_while_app_stop _ _ 44 _ Hs eq_refl).
  cbn [starts_with N.eqb Pos.eqb andb skipn].
  rewrite ends_with_app, saslname_roundtrip. exact (f_equal (fun x => Some (login, x)) (firstn_drop_suffix pw [1; 1])).
Qed.

Lemma first_announced_some : forall c s r,
  first_announced c s = Some r ->
  exists pre post, c = pre ++ r :: post /\ mem r s = true /\
                   forall x, In x pre -> mem x s = false.
Proof.
  induction c as [|m c IH]; intros s r H; cbn [first_announced] in H; [discriminate|].
  destruct (mem m s) eqn:E.
  - injection H as <-. exists [], c. split; [reflexivity|]. split; [exact E|].
    intros x [].
  - destruct (IH _ _ H) as (pre & post & -> & Hr & Hpre).
    exists (m :: pre), post. split; [reflexivity|]. split; [exact Hr|].
    intros x [<-|Hx]; [exact E | apply Hpre, Hx].
Qed.

Lemma first_announced_none : forall c s,
  first_announced c s = None -> forall x, In x c -> mem x s = false.
Proof.
  induction c as [|m c IH]; intros s H x Hx; cbn [first_announced] in H; [destruct Hx|].
  destruct (mem m s) eqn:E; [discriminate|].
  destruct Hx as [<-|Hx]; [exact E | apply (IH _ H _ Hx)].
Qed.

Lemma mech_candidates_supported : forall m x,
  In x (mech_candidates m) -> mem x SUPPORTED_AUTH_MECHS = true.
Proof.
  intros m x Hx. unfold mech_candidates in Hx.
  destruct m as [m|].
  - destruct (mem m SUPPORTED_AUTH_MECHS) eqn:E.
    + destruct Hx as [<-|[]]. exact E.
    + apply mem_In, Hx.
  - apply mem_In, Hx.
Qed.

Theorem select_announced : forall v m r,
  select_mech v m = Some r ->
  mem r (split_ws v) = true /\ mem r SUPPORTED_AUTH_MECHS = true.
Proof.
  intros v m r H. unfold select_mech in H.
  destruct (first_announced_some _ _ _ H) as (pre & post & Hc & Hr & _).
  split; [exact Hr|].
  apply (mech_candidates_supported m). rewrite Hc. apply in_or_app. right. left. reflexivity.
Qed.

Theorem select_preferred : forall v m r,
  mem m SUPPORTED_AUTH_MECHS = true ->
  select_mech v (Some m) = Some r -> beq r m = true.
Proof.
  intros v m r Hm H. unfold select_mech, mech_candidates in H. rewrite Hm in H.
  cbn [first_announced] in H.
  destruct (mem m (split_ws v)); [|discriminate].
  injection H as <-. apply beq_refl.
Qed.

Theorem select_preferred_none : forall v m,
  mem m SUPPORTED_AUTH_MECHS = true -> mem m (split_ws v) = false ->
  select_mech v (Some m) = None.
Proof.
  intros v m Hm Hv. unfold select_mech, mech_candidates. rewrite Hm.
  cbn [first_announced]. rewrite Hv. reflexivity.
Qed.

Theorem select_first : forall v m,
  (m = None \/ exists x, m = Some x /\ mem x SUPPORTED_AUTH_MECHS = false) ->
  select_mech v m = first_announced SUPPORTED_AUTH_MECHS (split_ws v).
Proof.
  intros v m [->|(x & -> & Hx)]; unfold select_mech, mech_candidates.
  - reflexivity.
  - rewrite Hx. reflexivity.
Qed.

(* the selection: the result is the first implemented mechanism, in the client's preference order
   (restricted to the caller's choice when that is implemented), that the server announces;
   None exactly when no candidate is announced *)
Corollary select_spec_some : forall v m r,
  select_mech v m = Some r ->
  exists pre post, mech_candidates m = pre ++ r :: post /\ mem r (split_ws v) = true /\
                   forall x, In x pre -> mem x (split_ws v) = false.
Proof. intros v m r H. exact (first_announced_some _ _ _ H). Qed.

Corollary select_spec_none : forall v m,
  select_mech v m = None ->
  forall x, In x (mech_candidates m) -> mem x (split_ws v) = false.
Proof. intros v m H. exact (first_announced_none _ _ H). Qed.

Print Assumptions b64_val_char.
Print Assumptions b64_roundtrip.
Print Assumptions b64_alphabet.
Print Assumptions plain_exact.
Print Assumptions saslname_roundtrip.
Print Assumptions saslname_no_comma.
Print Assumptions oauth_exact.
Print Assumptions beq_eq.
Print Assumptions first_announced_some.
Print Assumptions first_announced_none.
Print Assumptions select_announced.
Print Assumptions select_preferred.
Print Assumptions select_preferred_none.
Print Assumptions select_first.
