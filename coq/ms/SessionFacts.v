(* SessionFacts.v — property C15: the client's operations against the reference server (Server.v).

   One call of __send_command against a server in step is one call of [handle]: the strict parser reads back
   exactly the command the client wrote (WriterFacts), the server executes it and renders its answer with any
   encoding choices, and the client reads exactly that answer (StatusFacts for a status line).  The operations
   whose reply is a single status line are closed here, and sessions of them by induction; the data-bearing
   operations are in SessionData.v.  Segmentation is C05 (interp = interp_s on the assembled stream). *)
From Coq Require Import String.
From Coq Require Import List NArith Bool Arith Lia.
From SV Require Import Bytes Base64 Client Transport Server Session WriterFacts StatusFacts.
Import ListNotations.
Local Open Scope nat_scope.

Notation runS := (interp_s sstate srv_react srv_connect srv_tls).

Definition simple_verbs : list bytes :=
  [bs "HAVESPACE"; bs "PUTSCRIPT"; bs "CHECKSCRIPT"; bs "DELETESCRIPT"; bs "SETACTIVE"; bs "RENAMESCRIPT"].

(* what [handle] passes to exec_command: the command counted and logged *)
Definition booked (verb : bytes) (pargs : list parg) (s : sstate) : sstate :=
  upd_cmds (verb, pargs) (upd_count s).

Definition srv_step (verb : bytes) (pargs : list parg) (s : sstate) : option (answer * sstate) :=
  exec_command verb pargs (booked verb pargs s).

Definition simple_answer (a : answer) : Prop :=
  match a with AnsOK None => True | AnsNO (Some c) => code_ok c | _ => False end.

(* the server is in step (no half-received command) and authenticated; [fault_now] is the fault planned for the
   command it receives next *)
Definition live (s : sstate) : Prop := s_in s = [] /\ s_authed s = true.
Definition fault_now (s : sstate) : fault := find_fault (s_count s) (s_faults s).

Definition conforming (s : sstate) : Prop :=
  s_in s = [] /\ s_authed s = true /\ s_faults s = [].

(* case analysis on every scrutinee of the goal, innermost first: an outer match whose scrutinee is itself a match
   would be destructed as an opaque term *)
Ltac split_matches :=
  repeat match goal with
         | |- context [match ?x with _ => _ end] =>
             match x with
             | context [match _ with _ => _ end] => fail 1
             | _ => destruct x
             end
         end.

Lemma find_fault_nil : forall n, find_fault n [] = FNone.
Proof. reflexivity. Qed.

Lemma conforming_live : forall s, conforming s -> live s /\ fault_now s = FNone.
Proof. intros s (A & B & C). unfold live, fault_now. rewrite C. auto. Qed.

(* rendering a reply consumes encoding choices and touches nothing else *)
Definition same_but_choices (s s' : sstate) : Prop := exists ch, s' = upd_choices ch s.

Lemma sbc_refl : forall s, same_but_choices s s.
Proof. intros []. eexists. reflexivity. Qed.

Lemma sbc_trans : forall a b c, same_but_choices a b -> same_but_choices b c -> same_but_choices a c.
Proof. intros a b c (x & ->) (y & ->). exists y. reflexivity. Qed.

Lemma pick_sbc : forall s, same_but_choices s (snd (pick s)).
Proof. intro s. unfold pick. destruct (s_choices s); [apply sbc_refl|eexists; reflexivity]. Qed.

Lemma reply_bytes_eq : forall st code text s,
  reply_bytes st code text s = (render_reply (mk_reply st code text (fst (pick s))), snd (pick s)).
Proof. intros. unfold reply_bytes. destruct (pick s). reflexivity. Qed.

Lemma listing_bytes_sbc : forall store active s, same_but_choices s (snd (listing_bytes store active s)).
Proof.
  induction store as [|[n c] t IH]; intros active s; [apply sbc_refl|].
  cbn [listing_bytes]. pose proof (pick_sbc s) as P. destruct (pick s) as [ch s1].
  specialize (IH active s1). destruct (listing_bytes t active s1) as [r s2]. exact (sbc_trans _ _ _ P IH).
Qed.

Lemma render_answer_sbc : forall a s, same_but_choices s (snd (render_answer a s)).
Proof.
  intros a s. destruct a; cbn [render_answer].
  - rewrite reply_bytes_eq. apply pick_sbc.
  - rewrite reply_bytes_eq. apply pick_sbc.
  - pose proof (listing_bytes_sbc (s_store s) (s_active s) s) as L.
    destruct (listing_bytes (s_store s) (s_active s) s) as [l s1]. rewrite reply_bytes_eq.
    exact (sbc_trans _ _ _ L (pick_sbc s1)).
  - pose proof (pick_sbc s) as P. destruct (pick s) as [ch s1]. rewrite reply_bytes_eq.
    exact (sbc_trans _ _ _ P (pick_sbc s1)).
  - rewrite reply_bytes_eq. apply pick_sbc.
Qed.

Lemma exec_data : forall verb pargs s t,
  s_store t = s_store s -> s_active t = s_active s -> s_cfg t = s_cfg s ->
  exec_command verb pargs t =
  match exec_command verb pargs s with
  | Some (a, s') => Some (a, upd_store (s_store s') (s_active s') t)
  | None => None
  end.
Proof.
  intros verb pargs s t H1 H2 H3.
  assert (E : upd_store (s_store s) (s_active s) t = t) by (destruct t; cbn in *; subst; reflexivity).
  unfold exec_command. rewrite H1, H2, H3.
  (* after the rewriting both sides walk the same tree of exec_command; a leaf returns t itself (E) or
     upd_store on t *)
  split_matches; first [reflexivity | rewrite E; reflexivity].
Qed.

Lemma exec_frame : forall verb pargs s a s2,
  exec_command verb pargs s = Some (a, s2) -> exists st ac, s2 = upd_store st ac s.
Proof.
  intros verb pargs s a s2 H. rewrite (exec_data verb pargs s s eq_refl eq_refl eq_refl) in H.
  destruct (exec_command verb pargs s) as [[a' s']|]; [|discriminate]. inversion H. eauto.
Qed.

(* the server took one command from [s] and now holds the data of [sd] *)
Definition stepped (s sd s3 : sstate) : Prop :=
  live s3 /\ s_faults s3 = s_faults s /\ s_count s3 = S (s_count s) /\
  s_store s3 = s_store sd /\ s_active s3 = s_active sd /\ s_cfg s3 = s_cfg s.

Lemma stepped_booked : forall verb pargs s s3,
  live s -> same_but_choices (booked verb pargs s) s3 -> stepped s s s3.
Proof. intros verb pargs s s3 (Hi & Ha) (ch & ->). repeat split; assumption. Qed.

Lemma stepped_exec : forall verb pargs s a s2 s3,
  live s -> srv_step verb pargs s = Some (a, s2) -> same_but_choices s2 s3 -> stepped s s2 s3.
Proof.
  intros verb pargs s a s2 s3 (Hi & Ha) Hs (ch & ->).
  destruct (exec_frame _ _ _ _ _ Hs) as (st & ac & ->). repeat split; assumption.
Qed.

Lemma stepped_conforming : forall s sd s3, conforming s -> stepped s sd s3 -> conforming s3.
Proof. intros s sd s3 (_ & _ & F) ((I & A) & F3 & _). repeat split; congruence. Qed.

Lemma script_verb_dispatch : forall v, In v script_verbs ->
  beq v (bs "CAPABILITY") = false /\ beq v (bs "LOGOUT") = false /\ beq v (bs "NOOP") = false /\
  beq v (bs "STARTTLS") = false /\ beq v (bs "AUTHENTICATE") = false /\ mem v script_verbs = true.
Proof. intros v H. repeat (destruct H as [<-|H]; [repeat split; reflexivity|]). destruct H. Qed.

Lemma script_verb_ok : forall v, In v script_verbs ->
  v <> [] /\ Forall (fun c => is_alpha c = true) v /\ upper v = v.
Proof.
  intros v H.
  repeat (destruct H as [<-|H]; [split; [discriminate|split; [repeat constructor|reflexivity]]|]). destruct H.
Qed.

Lemma simple_script_verb : forall v, In v simple_verbs -> In v script_verbs.
Proof. unfold simple_verbs, script_verbs. cbn [In]. tauto. Qed.

Lemma handle_script : forall verb pargs rest s a s2,
  In verb script_verbs -> fault_now s = FNone -> s_authed s = true ->
  srv_step verb pargs s = Some (a, s2) ->
  handle (PCmd verb pargs rest) s = render_answer a s2.
Proof.
  intros verb pargs rest s a s2 Hv Hf Hau Hstep.
  destruct (script_verb_dispatch verb Hv) as (E1 & E2 & E3 & E4 & E5 & E6).
  unfold handle. cbv zeta.
  change (find_fault (pred (s_count (upd_count s))) (s_faults (upd_count s))) with (fault_now s).
  rewrite Hf.
  change (upd_cmds (verb, pargs) (upd_count s)) with (booked verb pargs s).
  rewrite E1, E2, E3, E4, E5, E6.
  change (s_authed (booked verb pargs s)) with (s_authed s). rewrite Hau. cbn [negb].
  unfold srv_step in Hstep. rewrite Hstep. reflexivity.
Qed.

Lemma handle_logout : forall rest s, fault_now s = FNone ->
  handle (PCmd (bs "LOGOUT") [] rest) s = reply_bytes StOK None (bs "bye") (booked (bs "LOGOUT") [] s).
Proof.
  intros rest s Hf. unfold handle. cbv zeta.
  change (find_fault (pred (s_count (upd_count s))) (s_faults (upd_count s))) with (fault_now s).
  rewrite Hf. reflexivity.
Qed.

Lemma handle_capability : forall rest s, fault_now s = FNone ->
  handle (PCmd (bs "CAPABILITY") [] rest) s = render_answer AnsCaps (booked (bs "CAPABILITY") [] s).
Proof.
  intros rest s Hf. unfold handle. cbv zeta.
  change (find_fault (pred (s_count (upd_count s))) (s_faults (upd_count s))) with (fault_now s).
  rewrite Hf. reflexivity.
Qed.

Lemma srv_react_one : forall verb args s out s3,
  verb <> [] -> Forall (fun c => is_alpha c = true) verb -> s_in s = [] ->
  handle (PCmd (upper verb) (map decode_arg args) []) s = (out, s3) -> s_in s3 = [] ->
  srv_react s (command_bytes verb args) = (s3, out).
Proof.
  intros verb args s out s3 Hne Hal Hin Hh H3.
  unfold srv_react. rewrite Hin. cbn [app].
  assert (Hlen : exists n, length (s_in (upd_in (command_bytes verb args) s)) = S n).
  { cbn [s_in upd_in]. unfold command_bytes. destruct verb; [congruence|]. cbn [app length]. eauto. }
  destruct Hlen as (n & Hn). rewrite Hn. cbn [feed_loop].
  change (s_in (upd_in (command_bytes verb args) s)) with (command_bytes verb args).
  rewrite (command_exactly_one verb args Hne Hal).
  assert (E : upd_in [] (upd_in (command_bytes verb args) s) = s) by (destruct s; cbn in *; subst; reflexivity).
  rewrite E, Hh. cbn [app feed_loop]. rewrite H3. reflexivity.
Qed.

Definition after_send (verb : bytes) (args : list arg) (s' : sstate) (stream : bytes) (w : sworld sstate)
  : sworld sstate :=
  mkSW sstate s' stream (S (s_n sstate w)) (s_conn sstate w) (Transport.s_tls sstate w)
       (WSend (s_conn sstate w) (Transport.s_tls sstate w) (command_bytes verb args) :: s_log sstate w).

Lemma run_send_command : forall f verb args nbl ql st k (w : sworld sstate) s' out,
  s_stream sstate w = [] -> srv_react (s_peer sstate w) (command_bytes verb args) = (s', out) ->
  runS (send_command f verb args [] nbl ql st k) w =
  runS (read_response f nbl ql [] 0 st k) (after_send verb args s' out w).
Proof.
  intros f verb args nbl ql st k w s' out Hs Hr.
  unfold send_command. cbn [send_all interp_s]. rewrite Hr, Hs. reflexivity.
Qed.

Lemma send_command_replied : forall f verb args nbl ql st k (w : sworld sstate) r s3,
  s_stream sstate w = [] -> srv_react (s_peer sstate w) (command_bytes verb args) = (s3, render_reply r) ->
  reply_ok r ->
  runS (send_command (S f) verb args [] nbl ql st k) w =
  match r_status r with
  | StOK => runS (k st (Some (bs "OK")) (data_of r) []) (after_send verb args s3 [] w)
  | StNO => runS (k (set_err (code_of r) (text_of r) st) (Some (bs "NO")) (data_of r) [])
                 (after_send verb args s3 [] w)
  | StBYE => (OFail ExBye st, after_send verb args s3 (after_line r ++ []) w)
  end.
Proof.
  intros f verb args nbl ql st k w r s3 Hs Hr Hok.
  rewrite (run_send_command (S f) verb args nbl ql st k w s3 _ Hs Hr).
  exact (read_response_reply sstate srv_react srv_connect srv_tls r f nbl ql [] 0 st k
           (after_send verb args s3 (render_reply r) w) [] Hok (eq_sym (app_nil_r _))).
Qed.

Lemma code_ok_known : forall c,
  In c [bs "NONEXISTENT"; bs "ACTIVE"; bs "ALREADYEXISTS"; bs "QUOTA/MAXSIZE"; bs "QUOTA/MAXSCRIPTS"] -> code_ok c.
Proof.
  intros c H. cbn [In] in H.
  repeat (destruct H as [<-|H]; [unfold code_ok; repeat split; reflexivity|]).
  destruct H.
Qed.

Ltac eval_beq :=
  repeat match goal with
         | |- context [beq (bs ?a) (bs ?b)] =>
             let v := eval vm_compute in (beq (bs a) (bs b)) in change (beq (bs a) (bs b)) with v
         end.

Lemma exec_simple_answer : forall verb pargs s a s2,
  In verb simple_verbs -> exec_command verb pargs s = Some (a, s2) -> simple_answer a.
Proof.
  intros verb pargs s a s2 Hv H. unfold simple_verbs in Hv. cbn [In] in Hv.
  (* verb by verb, the branch of exec_command for it: every leaf is OK without code or NO with a listed code *)
  repeat (destruct Hv as [<-|Hv];
          [unfold exec_command in H; revert H; eval_beq; cbv iota;
           split_matches;
           intro H; try discriminate; inversion H; subst; try exact I;
           apply code_ok_known; cbn [In]; tauto|]).
  destruct Hv.
Qed.

Lemma reply_ok_mk : forall st code text c,
  match code with Some x => code_ok x | None => True end -> reply_ok (mk_reply st code text c).
Proof.
  intros st code text c H. unfold reply_ok, mk_reply. cbn [r_code].
  destruct st; try exact H. destruct code; [exact H|].
  destruct ((c / 8) mod 2 =? 1)%N; [|exact I]. unfold code_ok. repeat split; reflexivity.
Qed.

Lemma mk_reply_status : forall st code text c, r_status (mk_reply st code text c) = st.
Proof. reflexivity. Qed.

Lemma mk_reply_text : forall st code text c,
  text_of (mk_reply st code text c) = if ((c / 2) mod 4 =? 0)%N then [] else text.
Proof. intros. unfold text_of, mk_reply. cbn [r_text]. destruct ((c / 2) mod 4 =? 0)%N; reflexivity. Qed.

Lemma mk_reply_code_no : forall code text c, code_of (mk_reply StNO code text c) = match code with Some x => x | None => [] end.
Proof. reflexivity. Qed.

Definition simple_reply (a : answer) (c : N) : reply :=
  match a with
  | AnsOK code => mk_reply StOK code (bs "done") c
  | AnsNO code => mk_reply StNO code (bs "refused") c
  | _ => mk_reply StOK None [] c
  end.

Lemma render_simple : forall a s, simple_answer a ->
  render_answer a s = (render_reply (simple_reply a (fst (pick s))), snd (pick s)).
Proof. intros [code|code| | |] s H; try contradiction; apply reply_bytes_eq. Qed.

Lemma simple_reply_ok : forall a c, simple_answer a -> reply_ok (simple_reply a c).
Proof. intros [[x|]|[x|]| | |] c H; try contradiction; apply reply_ok_mk; exact H. Qed.

Lemma script_stepped : forall verb pargs s a s2,
  live s -> srv_step verb pargs s = Some (a, s2) -> stepped s s2 (snd (render_answer a s2)).
Proof. intros verb pargs s a s2 Hl Hstep. exact (stepped_exec _ _ _ _ _ _ Hl Hstep (render_answer_sbc a s2)). Qed.

Lemma srv_react_script : forall verb args s a s2,
  In verb script_verbs -> live s -> fault_now s = FNone ->
  srv_step verb (map decode_arg args) s = Some (a, s2) ->
  srv_react s (command_bytes verb args) = (snd (render_answer a s2), fst (render_answer a s2)).
Proof.
  intros verb args s a s2 Hv Hl Hf Hstep.
  destruct (script_verb_ok verb Hv) as (Hne & Hal & Hup).
  apply (srv_react_one verb args s _ _ Hne Hal (proj1 Hl)); [|apply (script_stepped _ _ _ _ _ Hl Hstep)].
  rewrite Hup, (handle_script verb _ [] s a s2 Hv Hf (proj2 Hl) Hstep). apply surjective_pairing.
Qed.

Lemma srv_react_status : forall verb args s a s2,
  In verb script_verbs -> live s -> fault_now s = FNone ->
  srv_step verb (map decode_arg args) s = Some (a, s2) -> simple_answer a ->
  srv_react s (command_bytes verb args) = (snd (pick s2), render_reply (simple_reply a (fst (pick s2)))) /\
  stepped s s2 (snd (pick s2)).
Proof.
  intros verb args s a s2 Hv Hl Hf Hstep Hsa.
  pose proof (srv_react_script verb args s a s2 Hv Hl Hf Hstep) as Hr.
  pose proof (script_stepped _ _ _ _ _ Hl Hstep) as Hst.
  rewrite (render_simple a s2 Hsa) in Hr, Hst. split; assumption.
Qed.

Lemma send_script_command : forall F verb args nbl ql st k (w : sworld sstate) a s2,
  In verb script_verbs -> s_stream sstate w = [] -> live (s_peer sstate w) -> fault_now (s_peer sstate w) = FNone ->
  srv_step verb (map decode_arg args) (s_peer sstate w) = Some (a, s2) ->
  runS (send_command F verb args [] nbl ql st k) w =
  runS (read_response F nbl ql [] 0 st k)
       (after_send verb args (snd (render_answer a s2)) (fst (render_answer a s2)) w).
Proof.
  intros F verb args nbl ql st k w a s2 Hv Hs Hl Hf Hstep.
  exact (run_send_command F verb args nbl ql st k w _ _ Hs (srv_react_script verb args _ a s2 Hv Hl Hf Hstep)).
Qed.

Lemma srv_react_simple : forall verb args s a s2,
  In verb simple_verbs -> conforming s ->
  srv_step verb (map decode_arg args) s = Some (a, s2) ->
  exists c s3,
    pick s2 = (c, s3) /\
    srv_react s (command_bytes verb args) =
    (s3, render_reply (match a with
                       | AnsOK code => mk_reply StOK code (bs "done") c
                       | AnsNO code => mk_reply StNO code (bs "refused") c
                       | _ => mk_reply StOK None [] c
                       end)) /\
    conforming s3 /\ s_store s3 = s_store s2 /\ s_active s3 = s_active s2 /\ s_cfg s3 = s_cfg s.
Proof.
  intros verb args s a s2 Hv Hc Hstep.
  destruct (conforming_live s Hc) as (Hl & Hf).
  destruct (srv_react_status verb args s a s2 (simple_script_verb _ Hv) Hl Hf Hstep
              (exec_simple_answer _ _ _ _ _ Hv Hstep)) as (Hr & Hst).
  exists (fst (pick s2)), (snd (pick s2)).
  split; [apply surjective_pairing|]. split; [exact Hr|]. split; [exact (stepped_conforming _ _ _ Hc Hst)|].
  apply Hst.
Qed.

(* c is the choice number the server rendered the reply with: bits 1-2 zero mean no text (Server.mk_reply).
   The last arm is a filler: simple_answer excludes those answers (answer_outcome_eq). *)
Definition answer_outcome (a : answer) (c : N) (st : cstate) : outcome :=
  match a with
  | AnsOK _ => ODone (VBool true) st
  | AnsNO code =>
      ODone (VBool false)
            (set_err (match code with Some x => x | None => [] end)
                     (if ((c / 2) mod 4 =? 0)%N then [] else bs "refused") st)
  | _ => OFail ExBye st
  end.

Definition answer_state (a : answer) (c : N) (st : cstate) : cstate :=
  match a with
  | AnsNO code => set_err (match code with Some x => x | None => [] end)
                          (if ((c / 2) mod 4 =? 0)%N then [] else bs "refused") st
  | _ => st
  end.

Definition answer_bool (a : answer) : bool := match a with AnsOK _ => true | _ => false end.

Lemma answer_outcome_eq : forall a c st, simple_answer a ->
  answer_outcome a c st = ODone (VBool (answer_bool a)) (answer_state a c st).
Proof. intros [code|code| | |] c st H; try contradiction; reflexivity. Qed.

Lemma answer_state_keeps : forall a c st,
  c_auth (answer_state a c st) = c_auth st /\ c_caps (answer_state a c st) = c_caps st.
Proof. intros [code|code| | |] c st; split; reflexivity. Qed.

Lemma send_simple_answer : forall f verb args nbl ql st k (w : sworld sstate) a s2,
  In verb script_verbs -> s_stream sstate w = [] -> live (s_peer sstate w) -> fault_now (s_peer sstate w) = FNone ->
  srv_step verb (map decode_arg args) (s_peer sstate w) = Some (a, s2) -> simple_answer a ->
  runS (send_command (S f) verb args [] nbl ql st k) w =
  runS (k (answer_state a (fst (pick s2)) st) (Some (if answer_bool a then bs "OK" else bs "NO"))
          (data_of (simple_reply a (fst (pick s2)))) [])
       (after_send verb args (snd (pick s2)) [] w) /\
  stepped (s_peer sstate w) s2 (snd (pick s2)).
Proof.
  intros f verb args nbl ql st k w a s2 Hv Hs Hl Hf Hstep Hsa.
  destruct (srv_react_status verb args _ a s2 Hv Hl Hf Hstep Hsa) as (Hr & Hst).
  split; [|exact Hst].
  rewrite (send_command_replied f verb args nbl ql st k w _ _ Hs Hr (simple_reply_ok a _ Hsa)).
  destruct a as [code|[x|]| | |]; try contradiction; cbn [simple_reply r_status mk_reply]; [reflexivity|].
  unfold answer_state. rewrite mk_reply_text. reflexivity.
Qed.

Theorem simple_cmd_run : forall F verb args st (w : sworld sstate) a s2 (k : kont),
  In verb simple_verbs -> s_stream sstate w = [] -> live (s_peer sstate w) -> fault_now (s_peer sstate w) = FNone ->
  srv_step verb (map decode_arg args) (s_peer sstate w) = Some (a, s2) -> 1 <= F ->
  runS (simple_cmd F verb args st k) w =
  runS (k (answer_state a (fst (pick s2)) st) (VBool (answer_bool a))) (after_send verb args (snd (pick s2)) [] w) /\
  stepped (s_peer sstate w) s2 (snd (pick s2)).
Proof.
  intros F verb args st w a s2 k Hv Hs Hl Hf Hstep HF. destruct F as [|f]; [lia|].
  destruct (send_simple_answer f verb args None false st (fun st code _ _ => k st (VBool (is_ok code))) w a s2
              (simple_script_verb _ Hv) Hs Hl Hf Hstep (exec_simple_answer _ _ _ _ _ Hv Hstep)) as (R & Hst).
  split; [|exact Hst]. unfold simple_cmd. rewrite R. destruct a; reflexivity.
Qed.

Theorem simple_cmd_against_server : forall f verb args st (w : sworld sstate) a s2,
  In verb simple_verbs -> s_stream sstate w = [] -> conforming (s_peer sstate w) ->
  srv_step verb (map decode_arg args) (s_peer sstate w) = Some (a, s2) ->
  exists c s3,
    pick s2 = (c, s3) /\ conforming s3 /\
    s_store s3 = s_store s2 /\ s_active s3 = s_active s2 /\ s_cfg s3 = s_cfg (s_peer sstate w) /\
    interp_s sstate srv_react srv_connect srv_tls (simple_cmd (S f) verb args st finish) w =
    (answer_outcome a c st,
     mkSW sstate s3 [] (S (s_n sstate w)) (s_conn sstate w) (Transport.s_tls sstate w)
          (WSend (s_conn sstate w) (Transport.s_tls sstate w) (command_bytes verb args) :: s_log sstate w)).
Proof.
  intros f verb args st w a s2 Hv Hs Hc Hstep.
  destruct (conforming_live _ Hc) as (Hl & Hf).
  destruct (simple_cmd_run (S f) verb args st w a s2 finish Hv Hs Hl Hf Hstep ltac:(lia)) as (R & Hst).
  exists (fst (pick s2)), (snd (pick s2)).
  split; [apply surjective_pairing|]. split; [exact (stepped_conforming _ _ _ Hc Hst)|].
  rewrite R, (answer_outcome_eq a _ st (exec_simple_answer _ _ _ _ _ Hv Hstep)).
  repeat (split; [apply Hst|]). reflexivity.
Qed.

Definition op_command (o : op) : option (bytes * list arg) :=
  match o with
  | OHavespace n sz => Some (bs "HAVESPACE", [AStr n; ANum sz])
  | OPutscript n c => Some (bs "PUTSCRIPT", [AStr n; ALit c])
  | ODeletescript n => Some (bs "DELETESCRIPT", [AStr n])
  | OSetactive n => Some (bs "SETACTIVE", [AStr n])
  | OCheckscript c => Some (bs "CHECKSCRIPT", [ALit c])
  | ORenamescript a b => Some (bs "RENAMESCRIPT", [AStr a; AStr b])
  | _ => None
  end.

Definition needs_version (o : op) : bool :=
  match o with OCheckscript _ | ORenamescript _ _ => true | _ => false end.

Fixpoint abs_session (ops : list op) (s : sstate) (st : cstate) : option (list outcome * cstate * sstate) :=
  match ops with
  | [] => Some ([], st, s)
  | o :: t =>
      match op_command o with
      | None => None
      | Some (verb, args) =>
          match srv_step verb (map decode_arg args) s with
          | None => None
          | Some (a, s2) =>
              let '(c, s3) := pick s2 in
              let r := answer_outcome a c st in
              match abs_session t s3 (outcome_state r) with
              | Some (rs, st', s') => Some (r :: rs, st', s')
              | None => None
              end
          end
      end
  end.

Lemma op_command_verb : forall o verb args, op_command o = Some (verb, args) -> In verb simple_verbs.
Proof.
  intros o verb args H. destruct o; cbn [op_command] in H; try discriminate; inversion H; subst; unfold simple_verbs; cbn [In]; tauto.
Qed.

Lemma run_op_simple : forall f o st verb args,
  op_command o = Some (verb, args) -> c_auth st = true ->
  (needs_version o = true -> has_cap (bs "VERSION") st = true) ->
  run_op f o st = simple_cmd f verb args st finish.
Proof.
  intros f o st verb args H Ha Hv.
  destruct o; cbn [op_command] in H; try discriminate; inversion H; subst; cbn [run_op];
    unfold havespace, putscript, deletescript, setactive, checkscript, renamescript, auth_required;
    rewrite Ha; try reflexivity; rewrite (Hv eq_refl); reflexivity.
Qed.

Lemma answer_outcome_state : forall a c st,
  c_auth (outcome_state (answer_outcome a c st)) = c_auth st /\
  c_caps (outcome_state (answer_outcome a c st)) = c_caps st.
Proof. intros [code|code| | |] c st; cbn; auto. Qed.

(* every session of single-status operations that the reference server accepts: the client's results are
   the abstract answers, the server ends in the abstract state, and both sides stay in step *)
Theorem session_in_step : forall ops f st (w : sworld sstate) outs st' s',
  c_auth st = true ->
  (forall o, In o ops -> needs_version o = true -> has_cap (bs "VERSION") st = true) ->
  s_stream sstate w = [] -> conforming (s_peer sstate w) ->
  abs_session ops (s_peer sstate w) st = Some (outs, st', s') ->
  exists w',
    run_ops_s sstate srv_react srv_connect srv_tls (S f) ops st w = (outs, st', w') /\
    s_peer sstate w' = s' /\ s_stream sstate w' = [] /\ conforming s'.
Proof.
  induction ops as [|o t IH]; intros f st w outs st' s' Ha Hv Hs Hc Habs.
  - cbn in Habs. inversion Habs; subst. exists w. cbn. auto.
  - cbn [abs_session] in Habs.
    destruct (op_command o) as [[verb args]|] eqn:Eo; try discriminate.
    destruct (srv_step verb (map decode_arg args) (s_peer sstate w)) as [[a s2]|] eqn:Es; try discriminate.
    destruct (simple_cmd_against_server f verb args st w a s2 (op_command_verb _ _ _ Eo) Hs Hc Es)
      as (c & s3 & Hp & Hc3 & _ & _ & _ & Hrun).
    rewrite Hp in Habs.
    destruct (abs_session t s3 (outcome_state (answer_outcome a c st))) as [[[rs st1] s1]|] eqn:Et; try discriminate.
    inversion Habs; subst outs st' s'. clear Habs.
    destruct (answer_outcome_state a c st) as (Hau & Hcaps).
    set (w1 := mkSW sstate s3 [] (S (s_n sstate w)) (s_conn sstate w) (Transport.s_tls sstate w)
                    (WSend (s_conn sstate w) (Transport.s_tls sstate w) (command_bytes verb args) :: s_log sstate w)) in *.
    destruct (IH f (outcome_state (answer_outcome a c st)) w1 rs st1 s1) as (w' & Hr & Hpe & Hst & Hcf).
    + rewrite Hau. exact Ha.
    + intros o' Ho' Hn. unfold has_cap. rewrite Hcaps. apply (Hv o'); [right; exact Ho'|exact Hn].
    + reflexivity.
    + exact Hc3.
    + exact Et.
    + exists w'. split; [|auto].
      cbn [run_ops_s].
      rewrite (run_op_simple (S f) o st verb args Eo Ha (fun Hn => Hv o (or_introl eq_refl) Hn)).
      rewrite Hrun. fold w1. rewrite Hr. reflexivity.
Qed.

(* non-vacuity: a concrete session against a concrete server, computed *)
Definition demo_server : sstate :=
  mkS (mkCfg (bs "PLAIN") (bs "PLAIN") false true (bs "u") (bs "p") 1000 2 true)
      [(bs "a", bs "keep;")] (Some (bs "a")) true false ANone [] [3; 6; 1; 0; 7]%N [] 0 0 [].

Example session_example :
  match abs_session [OPutscript (bs "b") (bs "stop;"); ODeletescript (bs "a"); OSetactive (bs "b");
                     ODeletescript (bs "a"); OPutscript (bs "c") (bs "x"); ORenamescript (bs "b") (bs "a")]
                    demo_server (mkC true None [] [(bs "VERSION", Some (bs "1.0"))]) with
  | Some (outs, _, s') =>
      map (fun o => match o with ODone (VBool b) _ => Some b | _ => None end) outs
      = [Some true; Some false; Some true; Some true; Some true; Some true]
      /\ s_store s' = [(bs "a", bs "stop;"); (bs "c", bs "x")] /\ s_active s' = Some (bs "a")
  | None => False
  end.
Proof. vm_compute. repeat split. Qed.

Print Assumptions srv_react_simple.
Print Assumptions simple_cmd_against_server.
Print Assumptions session_in_step.
