(* StatusFacts.v — operation results mirror the server's status reply.

   For every well-formed status reply r of the reply grammar of ms/Server.v
   ([render_reply]: OK / NO / BYE, optional "(code)", optional text sent as a quoted
   string or as a literal), the client model of ms/Client.v, run by the stream
   semantics of ms/Transport.v on a stream that starts with [render_reply r],
   - consumes exactly the octets of the reply (what follows is untouched),
   - hands OK / NO to its continuation, with errcode / errmsg set from the reply for NO
     and the state unchanged for OK,
   - fails with ExBye for BYE.

   Hypothesis [reply_ok r]: the response code, when present, holds no CR / LF and its first
   closing parenthesis outside double quotes is the final one ([code_ok]).  Nothing is
   required of the text: any octets, quoted (when [quotable]) or literal.  The hypothesis on
   the code is needed, see [ex_code_ok_needed] at the end. *)
From Coq Require Import String List Arith NArith Bool Lia.
From SV Require Import Bytes BytesFacts Client Server Transport WriterFacts.
Import ListNotations.
Open Scope N_scope.

(* The stream semantics as equations, and [steps]: the form in which the reader-side facts of this file, DataFacts
   and CapFacts are stated and composed. *)
Section Stream.
  Variable P : Type.
  Variable react : P -> bytes -> P * bytes.
  Variable oc : P -> option (P * bytes).
  Variable ot : P -> option (P * bytes).

  Notation run := (interp_s P react oc ot).

  Lemma run_RdLine : forall st k w,
    run (RdLine st k) w =
    match split_crlf (s_stream P w) with
    | Some (line, rest) => run (k line) (s_set P rest w)
    | None => (OFail ExTimeout st, w)
    end.
  Proof. reflexivity. Qed.

  Lemma run_RdBlock : forall st n k w,
    run (RdBlock st n k) w =
    if n <=? blen (s_stream P w)
    then run (k (firstn (N.to_nat n) (s_stream P w)))
             (s_set P (skipn (N.to_nat n) (s_stream P w)) w)
    else (OFail ExTimeout st, w).
  Proof. reflexivity. Qed.

  Lemma s_set_set : forall a b (w : sworld P), s_set P a (s_set P b w) = s_set P a w.
  Proof. reflexivity. Qed.

  Lemma run_Send : forall d p w,
    run (Send d p) w =
    let '(s', reply) := react (s_peer P w) d in
    run p (mkSW P s' (s_stream P w ++ reply) (S (s_n P w)) (s_conn P w) (Transport.s_tls P w)
                (WSend (s_conn P w) (Transport.s_tls P w) d :: s_log P w)).
  Proof. reflexivity. Qed.

  (* [steps p X p']: on a stream that starts with X, p consumes exactly X and goes on as p' *)
  Definition steps (p : prog) (X : bytes) (p' : prog) : Prop :=
    forall w rest, s_stream P w = X ++ rest -> run p w = run p' (s_set P rest w).

  Lemma steps_refl : forall p, steps p [] p.
  Proof. intros p [s b n c t l] rest E. cbn in E. subst b. reflexivity. Qed.

  Lemma steps_trans : forall p X q Y r, steps p X q -> steps q Y r -> steps p (X ++ Y) r.
  Proof.
    intros p X q Y r H1 H2 w rest E. rewrite <- app_assoc in E.
    rewrite (H1 w _ E), (H2 (s_set P (Y ++ rest) w) rest eq_refl). reflexivity.
  Qed.

  Lemma steps_RdBlock : forall st k b, steps (RdBlock st (blen b) k) b (k b).
  Proof.
    intros st k b w rest E. rewrite run_RdBlock, E, blen_app.
    replace (blen b <=? blen b + blen rest) with true by (symmetry; apply N.leb_le; lia).
    unfold blen. rewrite Nat2N.id, firstn_length_app, skipn_length_app. reflexivity.
  Qed.
End Stream.

Definition inl (x : N) : Prop := x <> 10 /\ x <> 13.
Definition line_safe (l : bytes) : Prop := Forall inl l.

Lemma line_safe_of_contains : forall l,
  contains_byte 10 l = false -> contains_byte 13 l = false -> line_safe l.
Proof.
  intros l H10 H13. apply contains_byte_Forall in H10, H13.
  unfold line_safe. rewrite Forall_forall in *. intros x Hx. split; auto.
Qed.

Lemma line_safe_app : forall a b, line_safe a -> line_safe b -> line_safe (a ++ b).
Proof. intros a b Ha Hb. apply Forall_app. split; assumption. Qed.

Lemma line_safe_cons : forall x l, inl x -> line_safe l -> line_safe (x :: l).
Proof. intros. constructor; assumption. Qed.

Lemma inl_lit : forall x, (x =? 10) = false -> (x =? 13) = false -> inl x.
Proof. intros x A B. split; apply N.eqb_neq; assumption. Qed.

Lemma quote_safe : forall l, line_safe l -> line_safe (quote l).
Proof. intros l H. apply Forall_quote; [split; discriminate | split; discriminate | exact H]. Qed.

Lemma digits_safe : forall l, Forall (fun c => is_digit c = true) l -> line_safe l.
Proof.
  intros l H. eapply Forall_impl; [|exact H]. intros x Hx. apply is_digit_spec in Hx. unfold inl. lia.
Qed.

Lemma split_crlf_line : forall l rest,
  line_safe l -> split_crlf (l ++ 13 :: 10 :: rest) = Some (l, rest).
Proof.
  intros l rest H. apply split_crlf_first. eapply Forall_impl; [|exact H]. intros x Hx. apply Hx.
Qed.

Lemma take_while_not_lf : forall l,
  line_safe l -> take_while (fun c => negb (c =? 10)) l = l.
Proof.
  intros l H. apply take_while_all. eapply Forall_impl; [|exact H].
  intros x [A _]. apply N.eqb_neq in A. rewrite A. reflexivity.
Qed.

Definition starts_ns (l : bytes) : Prop := exists a m, l = a :: m /\ is_space a = false.
Definition ends_ns (l : bytes) : Prop := exists x z, l = x ++ [z] /\ is_space z = false.

Lemma ends_ns_app : forall x y, ends_ns y -> ends_ns (x ++ y).
Proof.
  intros x y (m & z & -> & Hz). exists (x ++ m), z. rewrite app_assoc. split; [reflexivity|exact Hz].
Qed.

Lemma ends_ns_cons : forall a y, ends_ns y -> ends_ns (a :: y).
Proof. intros a y H. apply (ends_ns_app [a] y H). Qed.

Lemma ends_ns_one : forall z, is_space z = false -> ends_ns [z].
Proof. intros z H. exists [], z. split; [reflexivity|exact H]. Qed.

Lemma lstrip_starts_ns : forall l, starts_ns l -> lstrip_f is_space l = l.
Proof.
  intros l (a & m & -> & Ha). unfold lstrip_f. cbn [drop_while]. rewrite Ha. reflexivity.
Qed.

Lemma rstrip_ends_ns : forall l, ends_ns l -> rstrip_f is_space l = l.
Proof.
  intros l (x & z & -> & Hz). unfold rstrip_f. rewrite rev_app_distr. cbn [rev app drop_while].
  rewrite Hz. change (z :: rev x) with (rev [z] ++ rev x). rewrite <- rev_app_distr.
  apply rev_involutive.
Qed.

Lemma strip_ws_tight : forall l, starts_ns l -> ends_ns l -> strip_ws l = l.
Proof.
  intros l Hs He. unfold strip_ws, strip_f. rewrite lstrip_starts_ns by exact Hs.
  apply rstrip_ends_ns. exact He.
Qed.

Lemma strip_ws_sp_tight : forall l, starts_ns l -> ends_ns l -> strip_ws (32 :: l) = l.
Proof.
  intros l Hs He. unfold strip_ws, strip_f.
  change (lstrip_f is_space (32 :: l)) with (lstrip_f is_space l).
  rewrite lstrip_starts_ns by exact Hs. apply rstrip_ends_ns. exact He.
Qed.

Lemma strip_ws_nil : strip_ws [] = [].
Proof. reflexivity. Qed.

Lemma scan_quoted_whole : forall t, scan_quoted (quote t) = Some (escape_q t, []).
Proof. intro t. rewrite <- (app_nil_r (quote t)). apply scan_quoted_quote. Qed.

Lemma scan_size_quote : forall t, scan_size (quote t) = None.
Proof. intro t. reflexivity. Qed.

Definition lit_hdr (n : N) : bytes := 123 :: dec n ++ [125].

Lemma scan_size_lit_hdr : forall n, scan_size (lit_hdr n) = Some (n, []).
Proof.
  intro n. unfold lit_hdr, scan_size. change (123 =? 123) with true. cbv beta iota zeta.
  destruct (dec_scan n 125 [] eq_refl) as [-> ->]. destruct (dec_cons n) as (d & ds & E & _).
  rewrite E. cbv iota. change (125 =? 43) with false. change (125 =? 125) with true. cbv iota.
  rewrite <- E, dec_roundtrip. reflexivity.
Qed.

Lemma lit_hdr_safe : forall n, line_safe (lit_hdr n).
Proof.
  intro n. unfold lit_hdr. apply line_safe_cons; [split; discriminate|].
  apply line_safe_app; [apply digits_safe, dec_digits | repeat constructor; discriminate].
Qed.

Lemma drop_last2_crlf : forall t, drop_last2 (t ++ CRLF) = t.
Proof.
  intro t. apply (firstn_drop_suffix t CRLF).
Qed.

Lemma scan_code_suffix : forall c m x,
  scan_code m (c ++ [41]) = Some (c, []) -> scan_code m (c ++ 41 :: x) = Some (c, x).
Proof.
  induction c as [|a c IH]; intros m x H.
  - cbn [app] in *. destruct m as [|[|m]]; cbn [scan_code] in *.
    + reflexivity.
    + change (41 =? 34) with false in H. change (41 =? 92) with false in H. discriminate.
    + discriminate.
  - cbn [app] in *.
    assert (K : forall m', match scan_code m' (c ++ [41]) with
                           | Some (x0, y) => Some (a :: x0, y) | None => None end = Some (a :: c, [])
                           -> match scan_code m' (c ++ 41 :: x) with
                              | Some (x0, y) => Some (a :: x0, y) | None => None end = Some (a :: c, x)).
    { intros m' H'. destruct (scan_code m' (c ++ [41])) as [[x0 y]|] eqn:E; [|discriminate].
      injection H' as -> ->. rewrite (IH m' x E). reflexivity. }
    destruct m as [|[|m]]; cbn [scan_code] in *.
    + destruct (a =? 41); [discriminate|]. destruct (a =? 34); apply K; exact H.
    + destruct (a =? 34); [apply K; exact H|]. destruct (a =? 92); apply K; exact H.
    + apply K; exact H.
Qed.

Definition sent_quoted (e : enc) (t : bytes) : bool :=
  match e with EQuoted => quotable t | ELiteral => false end.

(* the part of a rendered string that is on the status line, and the part after the CRLF *)
Definition str_line (e : enc) (t : bytes) : bytes :=
  if sent_quoted e t then quote t else lit_hdr (blen t).
Definition str_tail (e : enc) (t : bytes) : bytes :=
  if sent_quoted e t then [] else t ++ CRLF.

Lemma render_string_cases : forall e t,
  render_string e t = if sent_quoted e t then quote t else (lit_hdr (blen t) ++ CRLF) ++ t.
Proof.
  intros e t. unfold sent_quoted, render_string, lit_hdr, CRLF.
  destruct e; [destruct (quotable t)|]; cbn [app]; rewrite <- ?app_assoc; reflexivity.
Qed.

Lemma render_string_shape : forall e t rest,
  render_string e t ++ 13 :: 10 :: rest = str_line e t ++ 13 :: 10 :: str_tail e t ++ rest.
Proof.
  intros e t rest. rewrite render_string_cases. unfold str_line, str_tail, CRLF.
  destruct (sent_quoted e t); rewrite <- ?app_assoc; reflexivity.
Qed.

(* the text after the status atom, without its leading space *)
Definition body (r : reply) : bytes :=
  match r_code r, r_text r with
  | Some c, Some (e, t) => 40 :: c ++ 41 :: 32 :: str_line e t
  | Some c, None => 40 :: c ++ [41]
  | None, Some (e, t) => str_line e t
  | None, None => []
  end.
Definition tail_line (r : reply) : bytes :=
  match body r with [] => [] | b => 32 :: b end.
Definition data_of (r : reply) : option bytes :=
  match body r with [] => None | b => Some b end.
Definition first_line (r : reply) : bytes := status_bytes (r_status r) ++ tail_line r.
Definition after_line (r : reply) : bytes :=
  match r_text r with Some (e, t) => str_tail e t | None => [] end.

Definition code_of (r : reply) : bytes := match r_code r with Some c => c | None => [] end.
Definition text_of (r : reply) : bytes := match r_text r with Some (_, t) => t | None => [] end.

Lemma render_reply_shape : forall r rest,
  render_reply r ++ rest = first_line r ++ 13 :: 10 :: after_line r ++ rest.
Proof.
  intros [s oc ot] rest.
  unfold render_reply, first_line, tail_line, body, after_line, CRLF.
  cbn [r_status r_code r_text].
  rewrite <- !app_assoc. f_equal.
  destruct oc as [c|]; destruct ot as [[e t]|]; cbn [app]; rewrite <- ?app_assoc; cbn [app].
  - do 3 f_equal. do 2 f_equal. apply render_string_shape.
  - reflexivity.
  - pose proof (render_string_shape e t rest) as H.
    destruct (str_line e t) as [|a m] eqn:E.
    + exfalso. unfold str_line, quote, lit_hdr in E. destruct (sent_quoted e t); discriminate.
    + cbn [app]. f_equal. exact H.
  - reflexivity.
Qed.

(* well-formedness of a reply: the code does not close its parenthesis early (closing
   parentheses only inside balanced quoted strings) and holds neither CR nor LF.  The first
   clause is stated by running the client's own scanner, scan_code, over the code and its ")". *)
Definition code_ok (c : bytes) : Prop :=
  scan_code 0%nat (c ++ [41]) = Some (c, [])
  /\ contains_byte 10 c = false /\ contains_byte 13 c = false.

Definition reply_ok (r : reply) : Prop :=
  match r_code r with Some c => code_ok c | None => True end.

Lemma sent_quoted_safe : forall e t, sent_quoted e t = true -> line_safe t.
Proof.
  intros e t H. destruct e; [|discriminate]. cbn [sent_quoted] in H. unfold quotable in H.
  apply negb_true_iff in H. apply orb_false_iff in H. destruct H as [H H10].
  apply orb_false_iff in H. destruct H as [_ H13].
  apply line_safe_of_contains; assumption.
Qed.

Lemma str_line_safe : forall e t, line_safe (str_line e t).
Proof.
  intros e t. unfold str_line. destruct (sent_quoted e t) eqn:E;
    [apply quote_safe, (sent_quoted_safe e t E) | apply lit_hdr_safe].
Qed.

Lemma str_line_starts : forall e t, starts_ns (str_line e t).
Proof.
  intros e t. unfold str_line, quote, lit_hdr. destruct (sent_quoted e t); eexists _, _; split; reflexivity.
Qed.

Lemma str_line_ends : forall e t, ends_ns (str_line e t).
Proof.
  intros e t. unfold str_line, quote, lit_hdr.
  destruct (sent_quoted e t); apply ends_ns_cons, ends_ns_app, ends_ns_one; reflexivity.
Qed.

Lemma body_safe : forall r, reply_ok r -> line_safe (body r).
Proof.
  intros [s oc ot] H. unfold reply_ok in H. unfold body. cbn [r_code r_text] in *.
  destruct oc as [c|];
    [destruct H as (_ & H10 & H13); pose proof (line_safe_of_contains c H10 H13) as Hc|];
    destruct ot as [[e t]|].
  - constructor; [split; discriminate|]. apply Forall_app. split; [exact Hc|].
    repeat (constructor; [split; discriminate|]). apply str_line_safe.
  - constructor; [split; discriminate|]. apply Forall_app. split; [exact Hc|].
    repeat constructor; discriminate.
  - apply str_line_safe.
  - constructor.
Qed.

Lemma body_tight : forall r, body r = [] \/ (starts_ns (body r) /\ ends_ns (body r)).
Proof.
  intros [s oc ot]. unfold body. cbn [r_code r_text].
  destruct oc as [c|]; destruct ot as [[e t]|].
  - right. split.
    + eexists _, _. split; reflexivity.
    + apply ends_ns_cons, ends_ns_app. do 2 apply ends_ns_cons. apply str_line_ends.
  - right. split.
    + eexists _, _. split; reflexivity.
    + apply ends_ns_cons, ends_ns_app, ends_ns_one. reflexivity.
  - right. split; [apply str_line_starts|apply str_line_ends].
  - left. reflexivity.
Qed.

Lemma first_line_safe : forall r, reply_ok r -> line_safe (first_line r).
Proof.
  intros r H. unfold first_line. apply line_safe_app.
  - destruct (r_status r); vm_compute; repeat constructor; discriminate.
  - unfold tail_line. pose proof (body_safe r H) as Hb. destruct (body r); [constructor|].
    apply line_safe_cons; [apply inl_lit; reflexivity|exact Hb].
Qed.

Definition status_rest (r : bytes) : option bytes :=
  let d := take_while (fun c => negb (c =? 10)) (drop_while is_space r) in
  match d with [] => None | _ => Some d end.

Lemma scan_status_bytes : forall s r,
  scan_status (status_bytes s ++ r) = Some (status_bytes s, status_rest r).
Proof. intros [] r; reflexivity. Qed.

Lemma status_data : forall r, reply_ok r -> status_rest (tail_line r) = data_of r.
Proof.
  intros r H. unfold status_rest, tail_line, data_of.
  pose proof (body_safe r H) as Hs. destruct (body_tight r) as [E|[(a & m & E & Ha) _]].
  - rewrite E. reflexivity.
  - rewrite E in *. cbn [drop_while]. change (is_space 32) with true. cbv iota.
    rewrite Ha. rewrite take_while_not_lf by exact Hs. reflexivity.
Qed.

Lemma scan_status_first_line : forall r, reply_ok r ->
  scan_status (first_line r) = Some (status_bytes (r_status r), data_of r).
Proof.
  intros r H. unfold first_line. rewrite scan_status_bytes, (status_data r H). reflexivity.
Qed.

Lemma first_line_head : forall r, exists a m, first_line r = a :: m /\ (a =? 123) = false.
Proof.
  intro r. unfold first_line. destruct (r_status r); eexists _, _; split; reflexivity.
Qed.

(* __parse_status_text with its local functions named *)
Definition pst_after (strict : bool) (st : cstate) (k : option (bytes * bytes) -> prog)
           (code text : bytes) : prog :=
  match text with
  | [] => k (Some (code, []))
  | _ =>
      match scan_size text with
      | Some (n, []) => RdBlock st (n + 2) (fun b => k (Some (code, drop_last2 b)))
      | _ =>
          match scan_quoted text with
          | Some (body, []) => k (Some (code, unescape_q body))
          | _ => if strict then Fail ExBadMsg st else k (Some (code, []))
          end
      end
  end.

Lemma pst_unfold : forall strict text st k,
  parse_status_text strict text st k =
  let text := strip_ws (match text with Some t => t | None => [] end) in
  match text with
  | c :: t =>
      if c =? 40 then
        match scan_code 0%nat t with
        | None => if strict then Fail ExBadMsg st else k (Some ([], []))
        | Some (code, rest) => pst_after strict st k code (strip_ws rest)
        end
      else pst_after strict st k [] text
  | [] => pst_after strict st k [] text
  end.
Proof. reflexivity. Qed.

(* __read_line after its recv loop: what is done with the line read *)
Definition read_line_k (st : cstate) (k : cstate -> rlres -> prog) (ret : bytes) : prog :=
  match ret with
  | [] => k st (RL_line [])
  | _ =>
      match scan_size ret with
      | Some (n, _) => k st (RL_lit n)
      | None =>
          match scan_status ret with
          | Some (code, data) =>
              if beq code (bs "BYE") then Fail ExBye st
              else if beq code (bs "NO") then
                     parse_status_text true data st (fun r =>
                       match r with
                       | Some (c, m) => k (set_err c m st) (RL_resp code data)
                       | None => Fail ExBadMsg st
                       end)
                   else parse_status_text false data st (fun _ => k st (RL_resp code data))
          | None => k st (RL_line ret)
          end
      end
  end.

Lemma read_line_unfold : forall st k, read_line st k = RdLine st (read_line_k st k).
Proof. reflexivity. Qed.

Section Run.
  Variable P : Type.
  Variable react : P -> bytes -> P * bytes.
  Variable oc : P -> option (P * bytes).
  Variable ot : P -> option (P * bytes).

  Notation run := (interp_s P react oc ot).
  Notation steps := (steps P react oc ot).

  Lemma steps_read_line : forall st k l,
    line_safe l -> steps (read_line st k) (l ++ CRLF) (read_line_k st k l).
  Proof.
    intros st k l H w rest E. rewrite read_line_unfold, (run_RdLine P react oc ot), E. unfold CRLF.
    rewrite <- app_assoc. cbn [app]. rewrite split_crlf_line by exact H. reflexivity.
  Qed.

  (* the text part of a reply, read by the local function `after` *)
  Lemma after_string : forall e t strict st k code w rest,
    run (pst_after strict st k code (str_line e t)) (s_set P (str_tail e t ++ rest) w) =
    run (k (Some (code, t))) (s_set P rest w).
  Proof.
    intros e t strict st k code w rest. unfold str_line, str_tail.
    destruct (sent_quoted e t).
    - unfold pst_after. rewrite scan_size_quote, scan_quoted_whole, unescape_escape.
      unfold quote. reflexivity.
    - unfold pst_after. rewrite scan_size_lit_hdr. unfold lit_hdr at 1. cbv iota.
      replace (blen t + 2) with (blen (t ++ CRLF)) by apply blen_app.
      rewrite (steps_RdBlock P react oc ot _ _ (t ++ CRLF) _ rest) by (rewrite <- app_assoc; reflexivity).
      rewrite drop_last2_crlf, s_set_set. reflexivity.
  Qed.

  Lemma pst_reply : forall r strict st k w rest,
    reply_ok r ->
    run (parse_status_text strict (data_of r) st k) (s_set P (after_line r ++ rest) w) =
    run (k (Some (code_of r, text_of r))) (s_set P rest w).
  Proof.
    intros [s oc' ot'] strict st k w rest H. rewrite pst_unfold. cbv zeta.
    pose proof (body_tight (mkReply s oc' ot')) as T.
    unfold reply_ok in H. unfold data_of, body, after_line, code_of, text_of in *.
    cbn [r_code r_text] in *.
    destruct oc' as [c|]; destruct ot' as [[e t]|]; [| | |reflexivity];
      destruct T as [T|[Ts Te]].
    - discriminate T.
    - destruct H as (Hc & _ & _). rewrite (strip_ws_tight _ Ts Te). change (40 =? 40) with true. cbv iota.
      rewrite (scan_code_suffix c 0%nat (32 :: str_line e t) Hc).
      rewrite strip_ws_sp_tight by (apply str_line_starts || apply str_line_ends).
      apply after_string.
    - discriminate T.
    - destruct H as (Hc & _ & _). rewrite (strip_ws_tight _ Ts Te). change (40 =? 40) with true. cbv iota.
      rewrite Hc. reflexivity.
    - destruct (str_line_starts e t) as (? & ? & E & _). congruence.
    - (* the rendered string starts with a double quote or a brace, not with a parenthesis *)
      pose proof (after_string e t strict st k [] w rest) as A.
      destruct (str_line e t) as [|a m] eqn:E; [destruct Ts as (? & ? & ? & _); discriminate|].
      rewrite (strip_ws_tight _ Ts Te). replace (a =? 40) with false; [exact A|].
      unfold str_line, quote, lit_hdr in E. destruct (sent_quoted e t); injection E as <- _; reflexivity.
  Qed.

  Lemma read_line_reply : forall r st k w rest,
    reply_ok r -> s_stream P w = render_reply r ++ rest ->
    run (read_line st k) w =
    match r_status r with
    | StOK => run (k st (RL_resp (bs "OK") (data_of r))) (s_set P rest w)
    | StNO => run (k (set_err (code_of r) (text_of r) st) (RL_resp (bs "NO") (data_of r)))
                  (s_set P rest w)
    | StBYE => (OFail ExBye st, s_set P (after_line r ++ rest) w)
    end.
  Proof.
    intros r st k w rest H Hs. unfold read_line. rewrite (run_RdLine P react oc ot), Hs, render_reply_shape.
    rewrite split_crlf_line by (apply first_line_safe; exact H).
    destruct (first_line_head r) as (a & m & E & Ha).
    pose proof (scan_status_first_line r H) as SS.
    rewrite E in *. unfold scan_size at 1. rewrite Ha, SS.
    destruct (r_status r).
    - change (beq (status_bytes StOK) (bs "BYE")) with false.
      change (beq (status_bytes StOK) (bs "NO")) with false. cbv iota.
      rewrite pst_reply by exact H. reflexivity.
    - change (beq (status_bytes StNO) (bs "BYE")) with false.
      change (beq (status_bytes StNO) (bs "NO")) with true. cbv iota.
      rewrite pst_reply by exact H. reflexivity.
    - change (beq (status_bytes StBYE) (bs "BYE")) with true. cbv iota. reflexivity.
  Qed.

  Lemma read_response_S : forall f nbl ql resp cpt st k,
    read_response (S f) nbl ql resp cpt st k =
    read_line st (fun st r =>
      match r with
      | RL_resp code data => k st (Some code) data resp
      | RL_lit n =>
          RdBlock st n (fun block =>
            let block' :=
                if ql then quote block ++ (if ends_with CRLF block then CRLF else [])
                else block in
            let resp' := resp ++ block' in
            if ends_with CRLF resp' then read_response f nbl ql resp' cpt st k
            else read_line st (fun st r2 =>
                   match r2 with
                   | RL_line l => read_response f nbl ql (resp' ++ l ++ CRLF) cpt st k
                   | RL_lit _ => Fail ExRawLiteral st
                   | RL_resp _ _ => Fail ExRawResponse st
                   end))
      | RL_line [] => read_response f nbl ql resp cpt st k
      | RL_line l =>
          let resp' := resp ++ l ++ CRLF in
          let cpt' := S cpt in
          match nbl with
          | Some n => if Nat.eqb cpt' n then k st None None resp'
                      else read_response f nbl ql resp' cpt' st k
          | None => read_response f nbl ql resp' cpt' st k
          end
      end).
  Proof. reflexivity. Qed.

  (* what a call goes on with after the well-formed status reply r, [rest] being what follows r on the stream *)
  Definition reply_result (r : reply) (st : cstate) (k : cstate -> option bytes -> option bytes -> bytes -> prog)
             (resp : bytes) (w : sworld P) (rest : bytes) : outcome * sworld P :=
    match r_status r with
    | StOK => run (k st (Some (bs "OK")) (data_of r) resp) (s_set P rest w)
    | StNO => run (k (set_err (code_of r) (text_of r) st) (Some (bs "NO")) (data_of r) resp) (s_set P rest w)
    | StBYE => (OFail ExBye st, s_set P (after_line r ++ rest) w)
    end.

  (* C09: on a stream that starts with a well-formed status reply __read_response consumes exactly the reply
     and mirrors it: errcode / errmsg are set from a NO reply, BYE raises Error *)
  Theorem read_response_reply : forall r f nbl ql resp cpt st k w rest,
    reply_ok r -> s_stream P w = render_reply r ++ rest ->
    run (read_response (S f) nbl ql resp cpt st k) w =
    match r_status r with
    | StOK => run (k st (Some (bs "OK")) (data_of r) resp) (s_set P rest w)
    | StNO => run (k (set_err (code_of r) (text_of r) st) (Some (bs "NO")) (data_of r) resp)
                  (s_set P rest w)
    | StBYE => (OFail ExBye st, s_set P (after_line r ++ rest) w)
    end.
  Proof.
    intros r f nbl ql resp cpt st k w rest H Hs.
    rewrite read_response_S, (read_line_reply r _ _ w rest H Hs).
    destruct (r_status r); reflexivity.
  Qed.

  Lemma steps_reply : forall p X r f nbl ql resp cpt st k w rest,
    steps p X (read_response (S f) nbl ql resp cpt st k) -> reply_ok r ->
    s_stream P w = X ++ render_reply r ++ rest ->
    run p w = reply_result r st k resp w rest.
  Proof.
    intros p X r f nbl ql resp cpt st k w rest Hp Hr E. rewrite (Hp w _ E).
    rewrite (read_response_reply r f nbl ql resp cpt st k (s_set P (render_reply r ++ rest) w) rest Hr eq_refl).
    unfold reply_result. destruct (r_status r); reflexivity.
  Qed.

  Theorem read_response_OK : forall r f ql st k w rest,
    reply_ok r -> s_stream P w = render_reply r ++ rest -> r_status r = StOK ->
    exists data,
      run (read_response (S f) None ql [] 0 st k) w =
      run (k st (Some (bs "OK")) data []) (s_set P rest w).
  Proof.
    intros r f ql st k w rest H Hs E. exists (data_of r).
    rewrite (read_response_reply r f None ql [] 0%nat st k w rest H Hs), E. reflexivity.
  Qed.

  Theorem read_response_NO : forall r f ql st k w rest,
    reply_ok r -> s_stream P w = render_reply r ++ rest -> r_status r = StNO ->
    exists data,
      run (read_response (S f) None ql [] 0 st k) w =
      run (k (set_err (code_of r) (text_of r) st) (Some (bs "NO")) data []) (s_set P rest w).
  Proof.
    intros r f ql st k w rest H Hs E. exists (data_of r).
    rewrite (read_response_reply r f None ql [] 0%nat st k w rest H Hs), E. reflexivity.
  Qed.

  Theorem read_response_BYE : forall r f ql st k w rest,
    reply_ok r -> s_stream P w = render_reply r ++ rest -> r_status r = StBYE ->
    fst (run (read_response (S f) None ql [] 0 st k) w) = OFail ExBye st.
  Proof.
    intros r f ql st k w rest H Hs E.
    rewrite (read_response_reply r f None ql [] 0%nat st k w rest H Hs), E. reflexivity.
  Qed.

  (* the outcome a status reply must produce for an operation that returns a boolean *)
  Definition mirror (r : reply) (st : cstate) : outcome :=
    match r_status r with
    | StOK => ODone (VBool true) st
    | StNO => ODone (VBool false) (set_err (code_of r) (text_of r) st)
    | StBYE => OFail ExBye st
    end.

  Theorem simple_reply_mirror : forall r f ql st w rest,
    reply_ok r -> s_stream P w = render_reply r ++ rest ->
    let res := run (read_response (S f) None ql [] 0 st
                                  (fun st code _ _ => finish st (VBool (is_ok code)))) w in
    fst res = mirror r st
    /\ (r_status r <> StBYE -> snd res = s_set P rest w).
  Proof.
    intros r f ql st w rest H Hs res. subst res.
    rewrite (read_response_reply r f None ql [] 0%nat st _ w rest H Hs). unfold mirror.
    destruct (r_status r); cbn [run finish fst snd].
    - split; [reflexivity|intros _; reflexivity].
    - split; [reflexivity|intros _; reflexivity].
    - split; [reflexivity|intro N; exfalso; apply N; reflexivity].
  Qed.

  Theorem simple_cmd_mirror : forall r f verb args st w p' extra,
    reply_ok r -> s_stream P w = [] ->
    react (s_peer P w) (command_bytes verb args) = (p', render_reply r ++ extra) ->
    let res := run (simple_cmd (S f) verb args st finish) w in
    fst res = mirror r st
    /\ (r_status r <> StBYE ->
        snd res = mkSW P p' extra (S (s_n P w)) (s_conn P w) (Transport.s_tls P w)
                       (WSend (s_conn P w) (Transport.s_tls P w) (command_bytes verb args)
                          :: s_log P w)).
  Proof.
    intros r f verb args st w p' extra H Hs Hr res. subst res.
    unfold simple_cmd, send_command. cbn [send_all].
    rewrite (run_Send P react oc ot).
    rewrite Hr, Hs. cbn [app].
    match goal with |- context [run _ ?w0] => set (w' := w0) end.
    destruct (simple_reply_mirror r f false st w' extra H eq_refl) as [A B].
    split; [exact A|]. intro N. rewrite (B N). reflexivity.
  Qed.

End Run.

Definition ex_react (s : unit) (d : bytes) : unit * bytes := (s, []).
Definition ex_none (s : unit) : option (unit * bytes) := None.
Definition ex_world (stream : bytes) : sworld unit := mkSW unit tt stream 0 0 false [].

(* NO (QUOTA/MAXSIZE) {3} CRLF abc CRLF, followed by the first octets of the next reply *)
Definition ex_reply : reply := mkReply StNO (Some (bs "QUOTA/MAXSIZE")) (Some (ELiteral, bs "abc")).

Example ex_reply_ok : reply_ok ex_reply.
Proof. vm_compute. repeat split. Qed.

Example ex_render : render_reply ex_reply = bs "NO (QUOTA/MAXSIZE) {3}" ++ CRLF ++ bs "abc" ++ CRLF.
Proof. vm_compute. reflexivity. Qed.

Example ex_mirror_NO_literal :
  interp_s unit ex_react ex_none ex_none
           (read_response 1 None false [] 0 c_init
                          (fun st code _ _ => finish st (VBool (is_ok code))))
           (ex_world (render_reply ex_reply ++ bs "OK"))
  = (ODone (VBool false) (set_err (bs "QUOTA/MAXSIZE") (bs "abc") c_init), ex_world (bs "OK")).
Proof. vm_compute. reflexivity. Qed.

(* a code with a closing parenthesis inside a quoted string, and a quoted text with escapes *)
Definition ex_reply2 : reply :=
  mkReply StNO (Some (bs "TAG ""a)b""")) (Some (EQuoted, bs "say ""no"" \ twice")).

Example ex_reply2_ok : reply_ok ex_reply2.
Proof. vm_compute. repeat split. Qed.

Example ex_mirror_NO_quoted :
  interp_s unit ex_react ex_none ex_none
           (read_response 1 None false [] 0 c_init
                          (fun st code _ _ => finish st (VBool (is_ok code))))
           (ex_world (render_reply ex_reply2 ++ bs "tail"))
  = (ODone (VBool false) (set_err (bs "TAG ""a)b""") (bs "say ""no"" \ twice") c_init),
     ex_world (bs "tail")).
Proof. vm_compute. reflexivity. Qed.

Example ex_mirror_OK_BYE :
  fst (interp_s unit ex_react ex_none ex_none
         (read_response 1 None false [] 0 c_init
                        (fun st code _ _ => finish st (VBool (is_ok code))))
         (ex_world (render_reply (mkReply StOK None (Some (EQuoted, bs "done"))))))
  = ODone (VBool true) c_init
  /\ fst (interp_s unit ex_react ex_none ex_none
         (read_response 1 None false [] 0 c_init
                        (fun st code _ _ => finish st (VBool (is_ok code))))
         (ex_world (render_reply (mkReply StBYE (Some (bs "TRYLATER")) None))))
  = OFail ExBye c_init.
Proof. vm_compute. split; reflexivity. Qed.

(* [code_ok] cannot be dropped: the client looks for the first closing parenthesis outside
   double quotes, so a code such as  a)b  or an unbalanced quote makes a NO reply unreadable
   (Error("Bad error message")); such codes are outside RFC 5804's grammar (atoms / strings). *)
Example ex_code_ok_needed :
  ~ reply_ok (mkReply StNO (Some (bs "a)b")) None)
  /\ fst (interp_s unit ex_react ex_none ex_none
         (read_response 1 None false [] 0 c_init
                        (fun st code _ _ => finish st (VBool (is_ok code))))
         (ex_world (render_reply (mkReply StNO (Some (bs "a)b")) None))))
     = OFail ExBadMsg c_init
  /\ ~ reply_ok (mkReply StNO (Some (bs "a""b")) None)
  /\ fst (interp_s unit ex_react ex_none ex_none
         (read_response 1 None false [] 0 c_init
                        (fun st code _ _ => finish st (VBool (is_ok code))))
         (ex_world (render_reply (mkReply StNO (Some (bs "a""b")) None))))
     = OFail ExBadMsg c_init.
Proof.
  repeat split; try (vm_compute; reflexivity);
    intros (H & _); vm_compute in H; discriminate.
Qed.

Print Assumptions read_response_reply.
Print Assumptions read_response_OK.
Print Assumptions read_response_NO.
Print Assumptions read_response_BYE.
Print Assumptions simple_reply_mirror.
Print Assumptions simple_cmd_mirror.
