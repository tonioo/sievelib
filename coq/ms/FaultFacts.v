(* C14: the reference server with a planned fault (NO / BYE / no reply for the command it receives next) and what
   the client's __send_command makes of it: a NO reply gives the continuation a NO status with nothing assembled,
   BYE raises Error (ExBye), silence raises Error (ExTimeout).  The server's data are untouched, its command counter
   advances by one. *)
From Coq Require Import String.
From Coq Require Import List NArith Bool Arith Lia.
From SV Require Import Bytes Base64 Client Transport Server Session WriterFacts StatusFacts DecodeFacts DataFacts
  SessionFacts SessionData.
Import ListNotations.
Local Open Scope nat_scope.


(* what a faulted command leaves of the server: everything but the counter and the encoding choices *)
Record fault_frame (s s' : sstate) : Prop := {
  ff_in : s_in s' = []; ff_authed : s_authed s' = s_authed s; ff_faults : s_faults s' = s_faults s;
  ff_count : s_count s' = S (s_count s);
  ff_store : s_store s' = s_store s; ff_active : s_active s' = s_active s; ff_cfg : s_cfg s' = s_cfg s
}.

Definition fault_reply (f : fault) (c : N) : option reply :=
  match f with
  | FNo => Some (mk_reply StNO None (bs "injected failure") c)
  | FBye => Some (mk_reply StBYE None (bs "injected bye") c)
  | _ => None
  end.

Definition verb_ok (verb : bytes) : Prop :=
  verb <> [] /\ Forall (fun c => is_alpha c = true) verb.

Lemma fault_frame_sbc : forall s s', s_in s = [] -> same_but_choices (upd_count s) s' -> fault_frame s s'.
Proof. intros s s' Hin (ch & ->). constructor; try reflexivity. exact Hin. Qed.

Lemma fault_frame_stepped : forall s s', live s -> fault_frame s s' -> stepped s s s'.
Proof. intros s s' (_ & A) [F1 F2 F3 F4 F5 F6 F7]. repeat split; congruence. Qed.

Lemma handle_faulted : forall c s, fault_now s <> FNone ->
  handle c s = match fault_reply (fault_now s) (fst (pick (upd_count s))) with
               | Some r => (render_reply r, snd (pick (upd_count s)))
               | None => ([], upd_count s)
               end.
Proof.
  intros c s Hf. unfold handle. cbv zeta.
  change (find_fault (pred (s_count (upd_count s))) (s_faults (upd_count s))) with (fault_now s).
  destruct (fault_now s); [congruence| | |reflexivity]; apply reply_bytes_eq.
Qed.

Lemma srv_react_faulted : forall verb args s,
  verb_ok verb -> s_in s = [] -> fault_now s <> FNone ->
  exists s' c,
    srv_react s (command_bytes verb args) =
    (s', match fault_reply (fault_now s) c with Some r => render_reply r | None => [] end) /\
    fault_frame s s'.
Proof.
  intros verb args s (Hne & Hal) Hin Hf.
  pose proof (handle_faulted (PCmd (upper verb) (map decode_arg args) []) s Hf) as Hh.
  exists (snd (handle (PCmd (upper verb) (map decode_arg args) []) s)), (fst (pick (upd_count s))).
  assert (Hfr : fault_frame s (snd (handle (PCmd (upper verb) (map decode_arg args) []) s))).
  { rewrite Hh. destruct (fault_reply (fault_now s) (fst (pick (upd_count s)))); cbn [snd];
      apply (fault_frame_sbc _ _ Hin); [apply pick_sbc|apply sbc_refl]. }
  split; [|exact Hfr].
  rewrite (srv_react_one verb args s _ _ Hne Hal Hin (surjective_pairing _) (ff_in _ _ Hfr)), Hh.
  destruct (fault_reply (fault_now s) (fst (pick (upd_count s)))); reflexivity.
Qed.

Lemma fault_reply_ok : forall f c r, fault_reply f c = Some r -> reply_ok r.
Proof. intros [] c r H; inversion H; subst; apply reply_ok_mk; exact I. Qed.

Theorem send_command_faulted : forall f verb args nbl ql st k (w : sworld sstate),
  verb_ok verb -> s_stream sstate w = [] -> s_in (s_peer sstate w) = [] ->
  fault_now (s_peer sstate w) <> FNone ->
  exists w' c,
    fault_frame (s_peer sstate w) (s_peer sstate w') /\
    runS (send_command (S f) verb args [] nbl ql st k) w =
    match fault_now (s_peer sstate w) with
    | FNo =>
        let r := mk_reply StNO None (bs "injected failure") c in
        runS (k (set_err (code_of r) (text_of r) st) (Some (bs "NO")) (data_of r) []) w'
    | FBye => (OFail ExBye st, w')
    | _ => (OFail ExTimeout st, w')
    end /\
    (fault_now (s_peer sstate w) = FNo -> s_stream sstate w' = []).
Proof.
  intros f verb args nbl ql st k w Hv Hs Hin Hf.
  destruct (srv_react_faulted verb args (s_peer sstate w) Hv Hin Hf) as (s' & c & Hreact & Hframe).
  destruct (fault_now (s_peer sstate w)) eqn:Ef; [congruence| | |]; cbn [fault_reply] in Hreact.
  - exists (after_send verb args s' [] w), c. split; [exact Hframe|]. split; [|intros _; reflexivity].
    exact (send_command_replied f verb args nbl ql st k w _ s' Hs Hreact (fault_reply_ok FNo c _ eq_refl)).
  - exists (after_send verb args s' (after_line (mk_reply StBYE None (bs "injected bye") c) ++ []) w), c.
    split; [exact Hframe|]. split; [|discriminate].
    exact (send_command_replied f verb args nbl ql st k w _ s' Hs Hreact (fault_reply_ok FBye c _ eq_refl)).
  - exists (after_send verb args s' [] w), c. split; [exact Hframe|]. split; [|discriminate].
    rewrite (run_send_command (S f) verb args nbl ql st k w _ _ Hs Hreact).
    rewrite read_response_S. unfold read_line. rewrite run_RdLine. reflexivity.
Qed.

Print Assumptions send_command_faulted.
