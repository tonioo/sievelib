(* ProgFacts.v — predicates on client programs that the combinators of Client.v preserve.

   "No script command is sent before authentication", "nothing but STARTTLS is sent in clear", "the program never
   opens a connection" all have the same shape: a predicate Q on interaction trees that asks something of each
   primitive on every path.  What Q asks of Fail / RdLine / RdBlock / Send is collected in [closed]; the rules
   below then show, once, that parse_status_text, read_line, read_response, send_command, get_capabilities and the
   script operations satisfy Q whenever their continuations do. *)
From Coq Require Import List NArith Bool.
From SV Require Import Bytes Client Server.
Import ListNotations.

(* [Qst]: the client states a failing primitive may report, and with which a continuation may be resumed;
   [Psend]: what may be written.  Done, Connect, TlsWrap and Mark are left out on purpose: no combinator below
   produces them, and each predicate treats them in its own way. *)
Record closed (Q : prog -> Prop) (Qst : cstate -> Prop) (Psend : bytes -> Prop) : Prop := {
  cl_fail : forall e st, Qst st -> Q (Fail e st);
  cl_rdline : forall st k, Qst st -> (forall l, Q (k l)) -> Q (RdLine st k);
  cl_rdblock : forall st n k, Qst st -> (forall b, Q (k b)) -> Q (RdBlock st n k);
  cl_send : forall d k, Psend d -> Q k -> Q (Send d k);
  cl_set_err : forall c m st, Qst st -> Qst (set_err c m st);
  cl_set_errmsg : forall m st, Qst st -> Qst (set_errmsg m st)
}.

(* case analysis on every scrutinee between the goal's predicate and the leaves of a program *)
Ltac prog_cases :=
  repeat (cbv beta iota zeta;
          match goal with |- _ (match ?x with _ => _ end) => destruct x end).

Section Closed.
  Variables (Q : prog -> Prop) (Qst : cstate -> Prop) (Psend : bytes -> Prop).
  Hypothesis C : closed Q Qst Psend.

  (* the fields of C as local facts: they are what the [auto] after [prog_cases] closes the leaves with *)
  Let QF := cl_fail _ _ _ C.
  Let QL := cl_rdline _ _ _ C.
  Let QB := cl_rdblock _ _ _ C.
  Let QS := cl_send _ _ _ C.
  Let QE := cl_set_err _ _ _ C.
  Let QM := cl_set_errmsg _ _ _ C.

  Lemma Q_parse_status_text : forall strict text st k,
    Qst st -> (forall r, Q (k r)) -> Q (parse_status_text strict text st k).
  Proof.
    intros strict text st k Hst Hk. unfold parse_status_text. prog_cases; auto.
  Qed.

  (* the continuation is resumed with st, or with st after set_err *)
  Lemma Q_read_line : forall st k,
    Qst st -> (forall st' r, Qst st' -> Q (k st' r)) -> Q (read_line st k).
  Proof.
    intros st k Hst Hk. unfold read_line. apply QL; [assumption|]. intro ret.
    prog_cases; auto; apply Q_parse_status_text; auto; intro r; prog_cases; auto.
  Qed.

  Lemma Q_read_response : forall fuel nbl ql resp cpt st k,
    Qst st -> (forall st' c d r, Qst st' -> Q (k st' c d r)) ->
    Q (read_response fuel nbl ql resp cpt st k).
  Proof.
    induction fuel as [|f IH]; intros nbl ql resp cpt st k Hst Hk; cbn [read_response]; [auto|].
    apply Q_read_line; [assumption|]. intros st' r Hst'.
    prog_cases; auto.
    apply QB; [assumption|]. intro block. prog_cases; auto.
    apply Q_read_line; [assumption|]. intros st'' r2 Hst''. prog_cases; auto.
  Qed.

  Lemma Q_send_all : forall ls p,
    Forall (fun l => Psend (l ++ CRLF)) ls -> Q p -> Q (send_all ls p).
  Proof. intros ls p H Hp. induction H; cbn [send_all]; auto. Qed.

  Lemma Q_send_command : forall fuel name args extralines nbl ql st k,
    Psend (command_bytes name args) -> Forall (fun l => Psend (l ++ CRLF)) extralines ->
    Qst st -> (forall st' c d r, Qst st' -> Q (k st' c d r)) ->
    Q (send_command fuel name args extralines nbl ql st k).
  Proof.
    intros. unfold send_command. apply QS; [assumption|].
    apply Q_send_all; [assumption|]. apply Q_read_response; assumption.
  Qed.

  Lemma Q_get_capabilities : forall fuel st k,
    Qst st -> (forall st' cp, Qst st' -> Q (k (set_caps cp st'))) -> Q (get_capabilities fuel st k).
  Proof.
    intros fuel st k Hst Hk. unfold get_capabilities. apply Q_read_response; [assumption|].
    intros st' c d r Hst'. prog_cases; auto.
  Qed.

  Lemma Q_simple_cmd : forall fuel name args st (k : kont),
    Psend (command_bytes name args) -> Qst st -> (forall st' v, Qst st' -> Q (k st' v)) ->
    Q (simple_cmd fuel name args st k).
  Proof. intros. unfold simple_cmd. apply Q_send_command; auto. Qed.

  Lemma Q_auth_required : forall st p,
    Qst st -> (c_auth st = true -> Q p) -> Q (auth_required st p).
  Proof. intros st p Hst Hp. unfold auth_required. destruct (c_auth st); auto. Qed.

  (* The guarded operations send script commands only, each behind its own `authenticated` test. *)
  Hypothesis Hsend : forall st verb args,
    Qst st -> c_auth st = true -> mem verb script_verbs = true -> Psend (command_bytes verb args).

  Lemma Q_guarded_cmd : forall fuel name args st (k : kont),
    mem name script_verbs = true -> Qst st -> (forall st' v, Qst st' -> Q (k st' v)) ->
    Q (auth_required st (simple_cmd fuel name args st k)).
  Proof.
    intros. apply Q_auth_required; [assumption|]. intro. apply Q_simple_cmd; eauto.
  Qed.

  Lemma Q_listscripts : forall fuel st (k : kont),
    Qst st -> (forall st' v, Qst st' -> Q (k st' v)) -> Q (listscripts fuel st k).
  Proof.
    intros fuel st k Hst Hk. unfold listscripts. apply Q_auth_required; [assumption|]. intro.
    apply Q_send_command; [apply (Hsend st); auto | constructor | assumption |].
    intros st' c d r Hst'. prog_cases; auto.
  Qed.

  Lemma Q_getscript : forall fuel n st (k : kont),
    Qst st -> (forall st' v, Qst st' -> Q (k st' v)) -> Q (getscript fuel n st k).
  Proof.
    intros fuel n st k Hst Hk. unfold getscript. apply Q_auth_required; [assumption|]. intro.
    apply Q_send_command; [apply (Hsend st); auto | constructor | assumption |].
    intros st' c d r Hst'. prog_cases; auto.
  Qed.

  Lemma Q_renamescript : forall fuel o n st (k : kont),
    Qst st -> (forall st' v, Qst st' -> Q (k st' v)) -> Q (renamescript fuel o n st k).
  Proof.
    intros fuel o n st k Hst Hk. unfold renamescript.
    assert (Hdel : forall st', Qst st' -> Q (deletescript fuel o st' (fun st v =>
               match v with VBool true => k st (VBool true) | _ => k st (VBool false) end))).
    { intros st' Hst'. apply Q_guarded_cmd; [reflexivity | assumption |].
      intros st'' v Hst''. prog_cases; auto. }
    apply Q_auth_required; [assumption|]. intro.
    destruct (has_cap _ st); [apply Q_simple_cmd; [apply (Hsend st); auto | |]; auto|].
    apply Q_listscripts; [assumption|]. intros st1 v1 Hst1. prog_cases; auto.
    apply Q_getscript; [assumption|]. intros st2 v2 Hst2. prog_cases; auto.
    apply Q_guarded_cmd; [reflexivity | assumption |]. intros st3 v3 Hst3. prog_cases; auto.
    apply Q_guarded_cmd; [reflexivity | assumption |]. intros st4 v4 Hst4. prog_cases; auto.
  Qed.

  Theorem Q_script_op : forall fuel o st,
    Qst st -> (forall st' v, Qst st' -> Q (Done v st')) ->
    match o with
    | OConnect _ _ _ _ _ | OLogout | OCapability => True
    | _ => Q (run_op fuel o st)
    end.
  Proof.
    intros fuel o st Hst Hk.
    destruct o; cbn [run_op]; try exact I;
      try (apply Q_guarded_cmd; [reflexivity | assumption | exact Hk]).
    - apply Q_listscripts; assumption.
    - apply Q_getscript; assumption.
    - apply Q_renamescript; assumption.
    - unfold checkscript. apply Q_auth_required; [assumption|]. intro.
      destruct (has_cap _ st); [apply Q_simple_cmd; [apply (Hsend st); auto | |]; auto | auto].
  Qed.
End Closed.
