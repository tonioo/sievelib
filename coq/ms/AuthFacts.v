(* AuthFacts.v — property C10: "no script command before authentication; no credentials
   before TLS", proved on the client model (Client.v) run by the transport (Transport.v),
   for every peer, every segmentation and every history of public calls (Session.v).

   [tsafe] and [tlsafe] are predicates on interaction trees ("safe to run when the connection is / is not yet
   authenticated", "... when the TLS handshake is / is not yet done") that the client's combinators preserve
   (ProgFacts.closed); each is shown sound for [interp] by induction on the tree, and sessions follow by induction
   on the list of calls. *)
From Coq Require Import List NArith Bool String Arith Lia.
From SV Require Import Bytes BytesFacts Client Transport Session Server ProgFacts.
Import ListNotations.
Open Scope N_scope.

#[local] Arguments w_log {S} w.
#[local] Arguments w_conn {S} w.
#[local] Arguments w_tls {S} w.
#[local] Arguments w_peer {S} w.
#[local] Arguments w_buf {S} w.
#[local] Arguments w_chunks {S} w.
#[local] Arguments w_set_io {S} b cs w.

(* the command name a sendall starts with, as the server's parse_command reads it *)
Definition verb_of (d : bytes) : bytes := upper (take_while is_alpha d).
Definition is_script_send (d : bytes) : bool := mem (verb_of d) script_verbs.
Definition is_auth_send (d : bytes) : bool := beq (verb_of d) (bs "AUTHENTICATE").

Lemma verb_of_server : forall d, verb_of d = upper (take_while is_verb_char d).
Proof. reflexivity. Qed.

(* The log is most recent first: the tail of a log is what happened BEFORE its head.
   [authed_on log c]: scanning the history backwards from now, a GAuthOk mark of connection c
   is met before any WConnect (the creation of c itself or of any other connection). *)
Fixpoint authed_on (log : list wevent) (c : nat) : bool :=
  match log with
  | [] => false
  | WMark c' GAuthOk :: t => if Nat.eqb c' c then true else authed_on t c
  | WConnect _ :: _ => false
  | _ :: t => authed_on t c
  end.

Fixpoint log_safe (log : list wevent) : bool :=
  match log with
  | [] => true
  | WSend c tls d :: t => (if is_script_send d then authed_on t c else true) && log_safe t
  | _ :: t => log_safe t
  end.

Definition is_wconnect (e : wevent) : bool :=
  match e with WConnect _ => true | _ => false end.

Lemma authed_on_cons : forall e t c,
  authed_on (e :: t) c = true <->
  e = WMark c GAuthOk \/ (is_wconnect e = false /\ authed_on t c = true).
Proof.
  intros e t c. destruct e as [c'|c'|c' tls d|c' []]; cbn [authed_on is_wconnect].
  - split; [discriminate | intros [H|[H _]]; discriminate].
  - split; [auto | intros [H|[_ H]]; [discriminate | exact H]].
  - split; [auto | intros [H|[_ H]]; [discriminate | exact H]].
  - destruct (Nat.eqb_spec c' c) as [->|N]; split; auto.
    intros [H|[_ H]]; [congruence | exact H].
Qed.

Lemma authed_on_spec : forall log c,
  authed_on log c = true <->
  exists l1 l2, log = l1 ++ WMark c GAuthOk :: l2 /\ forallb (fun e => negb (is_wconnect e)) l1 = true.
Proof.
  induction log as [|e t IH]; intros c.
  - split; [discriminate|]. intros (l1 & l2 & H & _). destruct l1; discriminate.
  - rewrite authed_on_cons, IH. split.
    + intros [->|(Hn & l1 & l2 & -> & Hl)]; [exists [], t; auto|].
      exists (e :: l1), l2. cbn [app forallb]. rewrite Hn. auto.
    + intros (l1 & l2 & E & Hl). destruct l1 as [|e1 l1]; cbn [app] in E; inversion E; subst; [left; reflexivity|].
      cbn [forallb] in Hl. apply andb_true_iff in Hl. destruct Hl as [A B]. apply negb_true_iff in A. eauto 6.
Qed.

Lemma log_safe_cons : forall e t,
  log_safe (e :: t) = true <->
  log_safe t = true /\ (forall c tls d, e = WSend c tls d -> is_script_send d = true -> authed_on t c = true).
Proof.
  intros e t. destruct e as [c'|c'|c' tls' d'|c' g]; cbn [log_safe];
    try (split; [intro H; split; [exact H | discriminate] | tauto]).
  rewrite andb_true_iff. split.
  - intros [A B]. split; [exact B|]. intros c tls d E Hs. inversion E; subst. rewrite Hs in A. exact A.
  - intros [B A]. split; [|exact B]. destruct (is_script_send d') eqn:Hs; [exact (A c' tls' d' eq_refl Hs) | reflexivity].
Qed.

Lemma log_safe_spec : forall log,
  log_safe log = true <->
  forall l1 c tls d l2, log = l1 ++ WSend c tls d :: l2 -> is_script_send d = true ->
                        authed_on l2 c = true.
Proof.
  induction log as [|e t IH].
  - split; auto. intros _ l1 c tls d l2 H. destruct l1; discriminate.
  - rewrite log_safe_cons, IH. split.
    + intros [A B] l1 c tls d l2 E Hs. destruct l1 as [|e1 l1]; cbn [app] in E; inversion E; subst; eauto.
    + intros H. split; [intros l1 c tls d l2 E; apply (H (e :: l1) c tls d l2); rewrite E; reflexivity|].
      intros c tls d -> Hs. apply (H [] c tls d t); auto.
Qed.

(* non-vacuity: the predicate does reject a script command on an unauthenticated connection,
   also when an earlier connection had been authenticated *)
Example log_safe_bad :
  log_safe [WSend 1 false (bs "DELETESCRIPT ""x""" ++ CRLF); WConnect 1] = false.
Proof. vm_compute. reflexivity. Qed.

Example log_safe_good :
  log_safe [WSend 1 false (bs "DELETESCRIPT ""x""" ++ CRLF); WMark 1 GAuthOk;
            WSend 1 false (bs "AUTHENTICATE ""PLAIN"" ""AGEAYg==""" ++ CRLF); WConnect 1] = true.
Proof. vm_compute. reflexivity. Qed.

Example log_safe_bad_reconnect :
  log_safe [WSend 2 false (bs "putscript ""x"" {0+}" ++ CRLF ++ CRLF); WConnect 2;
            WMark 1 GAuthOk; WConnect 1] = false.
Proof. vm_compute. reflexivity. Qed.

Example is_auth_send_ex :
  is_auth_send (bs "AUTHENTICATE ""PLAIN"" ""AGEAYg==""" ++ CRLF) = true /\
  is_auth_send (bs "STARTTLS" ++ CRLF) = false.
Proof. vm_compute. auto. Qed.

Lemma verb_of_command : forall name args,
  forallb is_alpha name = true -> verb_of (command_bytes name args) = upper name.
Proof.
  intros name args Hn. unfold verb_of, command_bytes, CRLF. f_equal.
  assert (Hf : Forall (fun x => is_alpha x = true) name) by (apply Forall_forall, forallb_forall; exact Hn).
  destruct args; cbn [app]; apply take_while_app_stop; auto.
Qed.

Definition nonscript_name (name : bytes) : Prop :=
  forallb is_alpha name = true /\ mem (upper name) script_verbs = false.

Lemma nonscript_command : forall name args,
  nonscript_name name -> is_script_send (command_bytes name args) = false.
Proof.
  intros name args [Ha Hm]. unfold is_script_send. rewrite verb_of_command by assumption. exact Hm.
Qed.

(* a continuation line of AUTHENTICATE "LOGIN" starts with a double quote *)
Lemma dq_not_auth : forall x, is_auth_send (dq x ++ CRLF) = false.
Proof. intros. reflexivity. Qed.

(* and, conversely, the guarded commands are recognised as script commands (so that
   [log_safe] does constrain them): *)
Lemma script_commands_recognised : forall args,
  is_script_send (command_bytes (bs "HAVESPACE") args) = true /\
  is_script_send (command_bytes (bs "LISTSCRIPTS") args) = true /\
  is_script_send (command_bytes (bs "GETSCRIPT") args) = true /\
  is_script_send (command_bytes (bs "PUTSCRIPT") args) = true /\
  is_script_send (command_bytes (bs "CHECKSCRIPT") args) = true /\
  is_script_send (command_bytes (bs "DELETESCRIPT") args) = true /\
  is_script_send (command_bytes (bs "RENAMESCRIPT") args) = true /\
  is_script_send (command_bytes (bs "SETACTIVE") args) = true.
Proof.
  intros. unfold is_script_send.
  repeat split; (rewrite verb_of_command by (vm_compute; reflexivity)); vm_compute; reflexivity.
Qed.

Lemma auth_command_recognised : forall args,
  is_auth_send (command_bytes (bs "AUTHENTICATE") args) = true.
Proof.
  intros. unfold is_auth_send. rewrite verb_of_command by (vm_compute; reflexivity).
  vm_compute. reflexivity.
Qed.

Definition is_script_op (o : op) : bool :=
  match o with
  | OHavespace _ _ | OListscripts | OGetscript _ | OPutscript _ _ | ODeletescript _
  | ORenamescript _ _ | OSetactive _ | OCheckscript _ => true
  | OConnect _ _ _ _ _ | OLogout | OCapability => false
  end.

(* not authenticated: nothing is read, nothing is written, Error("Authentication required") *)
Theorem guarded_refuses : forall fuel o st,
  c_auth st = false -> is_script_op o = true -> run_op fuel o st = Fail ExAuthReq st.
Proof.
  intros fuel o st Ha Ho.
  destruct o; try discriminate Ho; cbn [run_op];
    unfold havespace, listscripts, getscript, putscript, deletescript, renamescript,
           setactive, checkscript, auth_required; rewrite Ha; reflexivity.
Qed.

(* the state reported at a leaf claims authentication only if the connection is authenticated *)
Definition okst (a : bool) (st : cstate) : Prop := c_auth st = true -> a = true.

(* [tsafe a p]: p is safe to run when "the current connection is authenticated" = a.
   The state carried by RdLine/RdBlock/Connect/TlsWrap is the one reported if that primitive
   fails, hence the side conditions. *)
Inductive tsafe : bool -> prog -> Prop :=
| ts_done a v st : okst a st -> tsafe a (Done v st)
| ts_fail a e st : okst a st -> tsafe a (Fail e st)
| ts_rdline a st k : okst a st -> (forall l, tsafe a (k l)) -> tsafe a (RdLine st k)
| ts_rdblock a st n k : okst a st -> (forall b, tsafe a (k b)) -> tsafe a (RdBlock st n k)
| ts_send a d k : (is_script_send d = true -> a = true) -> tsafe a k -> tsafe a (Send d k)
| ts_connect a st k : c_auth st = false -> tsafe false k -> tsafe a (Connect st k)
| ts_tls a st k : okst a st -> tsafe a k -> tsafe a (TlsWrap st k)
| ts_mark a k : tsafe true k -> tsafe a (Mark GAuthOk k).

Lemma okst_eq : forall a st, c_auth st = a -> okst a st.
Proof. intros a st <- H. exact H. Qed.

(* no operation changes `authenticated` except under the GAuthOk mark, so the states that occur while running at
   flag a are those whose flag is a *)
Lemma tsafe_closed : forall a,
  closed (tsafe a) (fun st => c_auth st = a) (fun d => is_script_send d = true -> a = true).
Proof. intro a. split; intros; try constructor; auto using okst_eq. Qed.

Definition ksafe {X : Type} (k : cstate -> X -> prog) : Prop :=
  forall st x, tsafe (c_auth st) (k st x).

Lemma nonscript_send_tsafe : forall a fuel name args extra nbl ql st k,
  nonscript_name name -> Forall (fun l => is_script_send (l ++ CRLF) = false) extra ->
  c_auth st = a -> (forall st' c d r, c_auth st' = a -> tsafe a (k st' c d r)) ->
  tsafe a (send_command fuel name args extra nbl ql st k).
Proof.
  intros a fuel name args extra nbl ql st k Hn Hx Hst Hk.
  apply (Q_send_command _ _ _ (tsafe_closed a)); auto.
  - rewrite nonscript_command by assumption. discriminate.
  - eapply Forall_impl; [|exact Hx]. cbn. intros l ->. discriminate.
Qed.

(* the only place where the flag is raised: under the GAuthOk mark *)
Lemma authenticate_tsafe : forall fuel a l p z m st k,
  c_auth st = a -> ksafe k -> tsafe a (authenticate fuel l p z m st k).
Proof.
  intros fuel a l p z m st k <- Hk. unfold authenticate.
  destruct (assoc_get _ _) as [[v|]|]; try (constructor; apply okst_eq; reflexivity).
  destruct (select_mech v m) as [mech|]; [|apply (Hk (set_errmsg _ st))]. cbv zeta.
  assert (Hfin : forall st' (c d : option bytes) (r : bytes), c_auth st' = c_auth st ->
            tsafe (c_auth st) (if is_ok c then Mark GAuthOk (k (set_auth true st') true) else k st' false)).
  { intros st' c d r E. destruct (is_ok c); [|rewrite <- E; apply Hk].
    constructor. exact (Hk (set_auth true st') true). }
  unfold plain_auth, login_auth, oauthbearer_auth, digest_md5_auth.
  repeat (destruct (beq mech _);
          [apply nonscript_send_tsafe; [split; reflexivity | repeat constructor | reflexivity | exact Hfin]|]).
  apply nonscript_send_tsafe; [split; reflexivity | constructor | reflexivity |].
  intros st' c d r E. constructor. apply okst_eq, E.
Qed.

Lemma starttls_tsafe : forall fuel a st k,
  c_auth st = a -> ksafe k -> tsafe a (starttls fuel st k).
Proof.
  intros fuel a st k <- Hk. unfold starttls.
  destruct (negb _); [constructor; apply okst_eq; reflexivity|].
  apply nonscript_send_tsafe; [split; reflexivity | constructor | reflexivity |].
  intros st' c d r E. destruct (negb _); [rewrite <- E; apply Hk|].
  constructor; [apply okst_eq, E|].
  apply (Q_get_capabilities _ _ _ (tsafe_closed (c_auth st))); [exact E|].
  intros st'' cp E'. rewrite <- E'. apply (Hk (set_caps cp st'')).
Qed.

(* connect() resets `authenticated` before opening the socket, so it is safe at any flag *)
Lemma connect_tsafe : forall fuel a l p z t m st, tsafe a (connect fuel l p z t m st).
Proof.
  intros. unfold connect. cbv beta zeta. apply ts_connect; [reflexivity|].
  apply (Q_get_capabilities _ _ _ (tsafe_closed false)); [reflexivity|]. intros st' cp E.
  assert (Hauth : forall st1, tsafe (c_auth st1)
            (authenticate fuel l p z m st1 (fun st2 ok => Done (VBool ok) st2))).
  { intros st1. apply authenticate_tsafe; [reflexivity|]. intros st2 ok. constructor. apply okst_eq. reflexivity. }
  rewrite <- E. destruct t; [|apply (Hauth (set_caps cp st'))].
  apply starttls_tsafe; [reflexivity|]. intros st1 ok. destruct ok; [apply Hauth|].
  constructor. apply okst_eq. reflexivity.
Qed.

(* the script operations send script commands, each behind its own test of `authenticated`;
   the client-side RENAMESCRIPT emulation re-checks it at every step *)
Theorem run_op_tsafe : forall fuel o st, tsafe (c_auth st) (run_op fuel o st).
Proof.
  intros fuel o st.
  assert (Hfin : forall st' v, c_auth st' = c_auth st -> tsafe (c_auth st) (Done v st')).
  { intros st' v E. constructor. apply okst_eq, E. }
  (* a script command may be sent at flag a only if a = true; the guard in front of it gives c_auth st' = true and
     the states met at flag a have c_auth st' = a: that is the [congruence] *)
  pose proof (Q_script_op _ _ _ (tsafe_closed (c_auth st)) ltac:(congruence) fuel o st eq_refl Hfin) as H.
  destruct o; try exact H; cbn [run_op].
  - apply connect_tsafe.
  - apply nonscript_send_tsafe; [split; reflexivity | constructor | reflexivity |]. intros. apply Hfin. assumption.
  - apply nonscript_send_tsafe; [split; reflexivity | constructor | reflexivity |]. intros. apply Hfin. assumption.
Qed.

Section Safety.
  Variable S : Type.
  Variable react : S -> bytes -> S * bytes.
  Variable on_connect : S -> option (S * bytes).
  Variable on_tls : S -> option (S * bytes).
  Variable seg : nat -> bytes -> list bytes.

  Notation interp := (interp S react on_connect on_tls seg).
  Notation run_ops := (run_ops S react on_connect on_tls seg).

  (* a read either resumes the program or fails with the carried state; in both cases nothing but the buffer and
     the pending chunks has changed *)
  Definition read_step (p : prog) (st : cstate) (k : bytes -> prog) (w : world S) : Prop :=
    (exists x b cs, interp p w = interp (k x) (w_set_io b cs w)) \/
    (exists e b cs, interp p w = (OFail e st, w_set_io b cs w)).

  Lemma interp_RdLine : forall st k w, read_step (RdLine st k) st k w.
  Proof.
    intros st k w. unfold read_step. cbn [interp]. destruct (rl _ _ _); eauto 6.
    right. exists ExOutOfFuel, (w_buf w), (w_chunks w). destruct w; reflexivity.
  Qed.

  Lemma interp_RdBlock : forall st n k w, read_step (RdBlock st n k) st k w.
  Proof.
    intros st n k w. unfold read_step. cbn [interp]. cbv zeta. destruct (rb_loop _ _ _ _); eauto 6.
    right. exists ExOutOfFuel, (w_buf w), (w_chunks w). destruct w; reflexivity.
  Qed.

  (* the session invariant: the trace is safe, and the client believes it is authenticated
     only if the CURRENT connection carries a GAuthOk mark *)
  Definition Inv (st : cstate) (w : world S) : Prop :=
    log_safe (w_log w) = true /\
    (c_auth st = true -> authed_on (w_log w) (w_conn w) = true).

  Lemma tsafe_sound : forall a p, tsafe a p -> forall w,
    log_safe (w_log w) = true ->
    (a = true -> authed_on (w_log w) (w_conn w) = true) ->
    Inv (outcome_state (fst (interp p w))) (snd (interp p w)).
  Proof.
    induction 1 as [a v st Hst | a e st Hst | a st k Hst Hk IH | a st n k Hst Hk IH
                   | a d k Hd Hk IH | a st k Hst Hk IH | a st k Hst Hk IH | a k Hk IH];
      intros w Hs Ha.
    - split; auto.
    - split; auto.
    - destruct (interp_RdLine st k w) as [(l & b & cs & ->)|(e & b & cs & ->)]; [apply IH; assumption | split; auto].
    - destruct (interp_RdBlock st n k w) as [(l & b & cs & ->)|(e & b & cs & ->)]; [apply IH; assumption | split; auto].
    - cbn [interp]. destruct (react (w_peer w) d) as [s' reply]. apply IH; cbn [w_log w_conn log_safe authed_on].
      + rewrite Hs, andb_true_r. destruct (is_script_send d); auto.
      + assumption.
    - cbn [interp]. destruct (on_connect (w_peer w)) as [[s' greeting]|].
      + apply IH; cbn [w_log w_conn log_safe]; [assumption | discriminate].
      + split; auto. cbn. congruence.
    - cbn [interp]. destruct (on_tls (w_peer w)) as [[s' after]|].
      + apply IH; cbn [w_log w_conn log_safe authed_on]; assumption.
      + split; auto.
    - cbn [interp]. apply IH; cbn [w_log w_conn log_safe authed_on]; [assumption|].
      intros _. rewrite Nat.eqb_refl. reflexivity.
  Qed.

  Theorem run_op_Inv : forall fuel o st w,
    Inv st w ->
    Inv (outcome_state (fst (interp (run_op fuel o st) w))) (snd (interp (run_op fuel o st) w)).
  Proof.
    intros fuel o st w [Hs Ha]. apply tsafe_sound with (a := c_auth st); auto.
    apply run_op_tsafe.
  Qed.

  Theorem run_ops_Inv : forall fuel ops st w,
    Inv st w -> Inv (snd (fst (run_ops fuel ops st w))) (snd (run_ops fuel ops st w)).
  Proof.
    intros fuel ops. induction ops as [|o t IH]; intros st w HI; cbn [run_ops].
    - exact HI.
    - pose proof (run_op_Inv fuel o st w HI) as H1.
      destruct (interp (run_op fuel o st) w) as [r w'] eqn:E. cbn [fst snd] in H1.
      specialize (IH _ _ H1).
      destruct (run_ops fuel t (outcome_state r) w') as [[rs st'] w'']. exact IH.
  Qed.

  Lemma Inv_init : forall w0, w_log w0 = [] -> Inv c_init w0.
  Proof. intros w0 H. split; [rewrite H; reflexivity | discriminate]. Qed.

  (* Trace safety for all histories: whatever the peer answers, however its bytes are cut,
     whatever sequence of public calls is made (failed calls included) *)
  Theorem trace_safe : forall fuel ops w0,
    w_log w0 = [] -> log_safe (w_log (snd (run_ops fuel ops c_init w0))) = true.
  Proof. intros fuel ops w0 H. apply (run_ops_Inv fuel ops c_init w0 (Inv_init w0 H)). Qed.

  (* the same, spelt out on the trace: a script command written on connection c is preceded
     by a GAuthOk mark of connection c with no connection creation in between *)
  Theorem trace_safe_explicit : forall fuel ops w0,
    w_log w0 = [] ->
    forall after c tls d before,
      w_log (snd (run_ops fuel ops c_init w0)) = after ++ WSend c tls d :: before ->
      is_script_send d = true ->
      exists l1 l2, before = l1 ++ WMark c GAuthOk :: l2 /\
                    forallb (fun e => negb (is_wconnect e)) l1 = true.
  Proof.
    intros fuel ops w0 H after c tls d before E Hd.
    apply authed_on_spec. pose proof (trace_safe fuel ops w0 H) as Hs.
    rewrite log_safe_spec in Hs. eapply Hs; eauto.
  Qed.

  Theorem flag_implies_authenticated : forall fuel ops w0,
    w_log w0 = [] ->
    let r := run_ops fuel ops c_init w0 in
    c_auth (snd (fst r)) = true -> authed_on (w_log (snd r)) (w_conn (snd r)) = true.
  Proof. intros fuel ops w0 H. apply (run_ops_Inv fuel ops c_init w0 (Inv_init w0 H)). Qed.

  Lemma log_snoc : forall (R : nat -> bool -> bytes -> Prop) (log log0 new : list wevent) e,
    log = new ++ e :: log0 ->
    (forall c tls d, In (WSend c tls d) new -> R c tls d) ->
    (forall c tls d, e = WSend c tls d -> R c tls d) ->
    exists new', log = new' ++ log0 /\ forall c tls d, In (WSend c tls d) new' -> R c tls d.
  Proof.
    intros R log log0 new e -> Hn He. exists (new ++ [e]). rewrite <- app_assoc. split; [reflexivity|].
    intros c tls d Hin. apply in_app_or in Hin. destruct Hin as [Hin|[Hin|[]]]; auto.
  Qed.

  Section TlSound.
    Variable P : bytes -> Prop.     (* what may be written in clear *)

    (* [tlsafe up p]: p is safe to run when "the TLS handshake was done on the current
       connection" = up: what is written while up = false satisfies P *)
    Inductive tlsafe : bool -> prog -> Prop :=
    | tl_done up v st : tlsafe up (Done v st)
    | tl_fail up e st : tlsafe up (Fail e st)
    | tl_rdline up st k : (forall l, tlsafe up (k l)) -> tlsafe up (RdLine st k)
    | tl_rdblock up st n k : (forall b, tlsafe up (k b)) -> tlsafe up (RdBlock st n k)
    | tl_send up d k : (up = true \/ P d) -> tlsafe up k -> tlsafe up (Send d k)
    | tl_connect up st k : tlsafe false k -> tlsafe up (Connect st k)
    | tl_tls up st k : tlsafe true k -> tlsafe up (TlsWrap st k)
    | tl_mark up g k : tlsafe up k -> tlsafe up (Mark g k).

    Lemma tlsafe_sound : forall up p, tlsafe up p -> forall w,
      (up = true -> w_tls w = true) ->
      exists new, w_log (snd (interp p w)) = new ++ w_log w /\
                  forall c tls d, In (WSend c tls d) new -> tls = true \/ P d.
    Proof.
      assert (Hleaf : forall (o : outcome) (w : world S), exists new, w_log (snd (o, w)) = new ++ w_log w /\
                        forall c tls d, In (WSend c tls d) new -> tls = true \/ P d).
      { intros o w. exists []. split; [reflexivity | intros ? ? ? []]. }
      induction 1 as [up v st | up e st | up st k Hk IH | up st n k Hk IH
                     | up d k Hd Hk IH | up st k Hk IH | up st k Hk IH | up g k Hk IH];
        intros w Hup.
      - apply Hleaf.
      - apply Hleaf.
      - destruct (interp_RdLine st k w) as [(l & b & cs & ->)|(e & b & cs & ->)];
          [apply (IH l (w_set_io b cs w) Hup) | apply (Hleaf _ (w_set_io b cs w))].
      - destruct (interp_RdBlock st n k w) as [(l & b & cs & ->)|(e & b & cs & ->)];
          [apply (IH l (w_set_io b cs w) Hup) | apply (Hleaf _ (w_set_io b cs w))].
      - cbn [interp]. destruct (react (w_peer w) d) as [s' reply].
        edestruct IH as (new & Hn & Hp); [|eapply log_snoc; [exact Hn | exact Hp |]]; [exact Hup|].
        intros c tls d' E. inversion E; subst. destruct Hd as [Hd|Hd]; auto.
      - cbn [interp]. destruct (on_connect (w_peer w)) as [[s' g]|]; [|apply Hleaf].
        edestruct IH as (new & Hn & Hp); [|eapply log_snoc; [exact Hn | exact Hp | discriminate]]; discriminate.
      - cbn [interp]. destruct (on_tls (w_peer w)) as [[s' g]|]; [|apply Hleaf].
        edestruct IH as (new & Hn & Hp); [|eapply log_snoc; [exact Hn | exact Hp | discriminate]]; reflexivity.
      - cbn [interp]. edestruct IH as (new & Hn & Hp); [|eapply log_snoc; [exact Hn | exact Hp | discriminate]]; exact Hup.
    Qed.
  End TlSound.

  (* every program is tlsafe when anything may be written in clear (P := True), so the first half of
     tlsafe_sound holds of all programs *)
  Lemma interp_log_extends : forall p w, exists new, w_log (snd (interp p w)) = new ++ w_log w.
  Proof.
    intros p w. assert (H : forall up, tlsafe (fun _ => True) up p) by (induction p; constructor; auto).
    destruct (tlsafe_sound _ _ _ (H false) w) as (new & E & _); [discriminate | eauto].
  Qed.
End Safety.

Arguments tlsafe P _ _ : clear implicits.

Lemma tlsafe_closed : forall P up, closed (tlsafe P up) (fun _ => True) (fun d => up = true \/ P d).
Proof. intros P up. split; intros; try constructor; auto. Qed.

Section TlsCombinators.
  Variable P : bytes -> Prop.
  Notation tlsafe := (tlsafe P).

  (* once the handshake is done, authenticate may write anything *)
  Lemma authenticate_tlsafe : forall fuel l p z m st k,
    (forall st' b, tlsafe true (k st' b)) -> tlsafe true (authenticate fuel l p z m st k).
  Proof.
    intros fuel l p z m st k Hk. unfold authenticate.
    destruct (assoc_get _ _) as [[v|]|]; try constructor.
    destruct (select_mech v m) as [mech|]; [|apply Hk]. cbv zeta.
    assert (Hsend : forall name args extra nbl k', (forall st' c d r, True -> tlsafe true (k' st' c d r)) ->
              tlsafe true (send_command fuel name args extra nbl false st k')).
    { intros. apply (Q_send_command _ _ _ (tlsafe_closed P true)); auto. apply Forall_forall. auto. }
    assert (Hfin : forall st' c (d : option bytes) (r : bytes), True ->
              tlsafe true (if is_ok c then Mark GAuthOk (k (set_auth true st') true) else k st' false)).
    { intros st' c d r _. destruct (is_ok c); [constructor|]; apply Hk. }
    unfold plain_auth, login_auth, oauthbearer_auth, digest_md5_auth.
    repeat (destruct (beq mech _); [apply Hsend; exact Hfin|]).
    apply Hsend. intros. constructor.
  Qed.

  Lemma starttls_tlsafe : forall fuel up st k,
    P (command_bytes (bs "STARTTLS") []) ->
    (forall st', tlsafe true (k st' true)) -> (forall st', tlsafe up (k st' false)) ->
    tlsafe up (starttls fuel st k).
  Proof.
    intros fuel up st k HP Hk1 Hk0. unfold starttls. destruct (negb _); [constructor|].
    apply (Q_send_command _ _ _ (tlsafe_closed P up)); auto. intros st' c d r _.
    destruct (negb _); [apply Hk0|]. constructor.
    apply (Q_get_capabilities _ _ _ (tlsafe_closed P true)); auto.
  Qed.

  Lemma connect_tlsafe : forall fuel up l p z m st,
    P (command_bytes (bs "STARTTLS") []) -> tlsafe up (connect fuel l p z true m st).
  Proof.
    intros fuel up l p z m st HP. unfold connect. cbv beta iota zeta. constructor.
    apply (Q_get_capabilities _ _ _ (tlsafe_closed P false)); [exact I|]. intros st' cp _.
    apply starttls_tlsafe; [exact HP | |].
    - intros st1. apply authenticate_tlsafe. intros. constructor.
    - intros st1. constructor.
  Qed.
End TlsCombinators.

Section TlsFirst.
  Variable S : Type.
  Variable react : S -> bytes -> S * bytes.
  Variable on_connect : S -> option (S * bytes).
  Variable on_tls : S -> option (S * bytes).
  Variable seg : nat -> bytes -> list bytes.

  Notation interp := (interp S react on_connect on_tls seg).

  (* connect(starttls=True): the only thing written in clear is the STARTTLS command itself;
     in particular the AUTHENTICATE command and the continuation lines of the LOGIN
     mechanism (user name, password) are written through the TLS layer *)
  Theorem connect_tls_only_starttls_in_clear : forall fuel l p z m st w new,
    w_log (snd (interp (connect fuel l p z true m st) w)) = new ++ w_log w ->
    forall c tls d, In (WSend c tls d) new -> tls = true \/ d = bs "STARTTLS" ++ CRLF.
  Proof.
    intros fuel l p z m st w new E c tls d Hin.
    destruct (tlsafe_sound S react on_connect on_tls seg (fun d => d = bs "STARTTLS" ++ CRLF)
                false (connect fuel l p z true m st)
                (connect_tlsafe _ fuel false l p z m st eq_refl) w) as [new' [E' Hp]];
      [discriminate|].
    rewrite E in E'. apply app_inv_tail in E'. subst new'. eapply Hp; eauto.
  Qed.

  Theorem connect_tls_first : forall fuel l p z m st w new,
    w_log (snd (interp (connect fuel l p z true m st) w)) = new ++ w_log w ->
    forall c tls d, In (WSend c tls d) new -> is_auth_send d = true -> tls = true.
  Proof.
    intros fuel l p z m st w new E c tls d Hin Hd.
    destruct (connect_tls_only_starttls_in_clear fuel l p z m st w new E c tls d Hin) as [H|H];
      [assumption|].
    subst d. vm_compute in Hd. discriminate Hd.
  Qed.

  Corollary connect_tls_first_ex : forall fuel l p z m st w,
    exists new,
      w_log (snd (interp (connect fuel l p z true m st) w)) = new ++ w_log w /\
      forall c tls d, In (WSend c tls d) new -> is_auth_send d = true -> tls = true.
  Proof.
    intros. destruct (interp_log_extends S react on_connect on_tls seg
                        (connect fuel l p z true m st) w) as [new E].
    exists new. split; [exact E|]. eapply connect_tls_first; eauto.
  Qed.
End TlsFirst.

(* What carries credentials: an AUTHENTICATE command (initial response of PLAIN and
   OAUTHBEARER) or a SASL continuation line, i.e. a sendall that is a bare quoted string (the
   user name and password of the LOGIN mechanism; no command starts with a double quote). *)
Definition is_sasl_line (d : bytes) : bool := starts_with [34] d.
Definition is_cred_send (d : bytes) : bool := is_auth_send d || is_sasl_line d.

Definition noncred_name (name : bytes) : Prop :=
  forallb is_alpha name = true /\ name <> [] /\ beq (upper name) (bs "AUTHENTICATE") = false.

Lemma noncred_command : forall name args,
  noncred_name name -> is_cred_send (command_bytes name args) = false.
Proof.
  intros name args (Ha & Hne & Hb). unfold is_cred_send, is_auth_send.
  rewrite verb_of_command by assumption. rewrite Hb. cbn [orb].
  destruct name as [|c n]; [congruence|]. unfold is_sasl_line, command_bytes.
  cbn [app starts_with]. cbn [forallb] in Ha. apply andb_true_iff in Ha. destruct Ha as [Hc _].
  destruct (N.eqb_spec 34 c) as [<-|]; [vm_compute in Hc; discriminate | reflexivity].
Qed.

Lemma noncred_verbs : Forall noncred_name (bs "LOGOUT" :: bs "CAPABILITY" :: script_verbs).
Proof. repeat constructor; try discriminate; vm_compute; reflexivity. Qed.

Section TlsOps.
  Notation P := (fun d : bytes => is_cred_send d = false).
  Notation tlsafe := (tlsafe P).

  Lemma other_ops_tlsafe : forall fuel up o st,
    match o with OConnect _ _ _ _ _ => False | _ => True end -> tlsafe up (run_op fuel o st).
  Proof.
    intros fuel up o st Ho.
    assert (Hv : forall verb args, In verb (bs "LOGOUT" :: bs "CAPABILITY" :: script_verbs) ->
              up = true \/ is_cred_send (command_bytes verb args) = false).
    { intros verb args Hin. right. apply noncred_command.
      exact (proj1 (Forall_forall _ _) noncred_verbs verb Hin). }
    pose proof (Q_script_op _ _ _ (tlsafe_closed P up)
                  (fun st verb args _ _ Hin => Hv verb args (or_intror (or_intror (proj1 (mem_In _ _) Hin))))
                  fuel o st I (fun _ _ _ => tl_done P up _ _)) as H.
    destruct o; try exact H; [contradiction | |];
      apply (Q_send_command _ _ _ (tlsafe_closed P up)); cbn [In]; auto; intros; constructor.
  Qed.

  Definition tls_op (o : op) : bool :=
    match o with OConnect _ _ _ use_tls _ => use_tls | _ => true end.

  Lemma run_op_tlsafe : forall fuel o st, tls_op o = true -> tlsafe false (run_op fuel o st).
  Proof.
    intros fuel o st Ho. destruct o; try (apply other_ops_tlsafe; exact I).
    cbn [tls_op] in Ho. subst. cbn [run_op]. apply connect_tlsafe. vm_compute. reflexivity.
  Qed.
End TlsOps.

Section TlsSessions.
  Variable S : Type.
  Variable react : S -> bytes -> S * bytes.
  Variable on_connect : S -> option (S * bytes).
  Variable on_tls : S -> option (S * bytes).
  Variable seg : nat -> bytes -> list bytes.

  Notation interp := (interp S react on_connect on_tls seg).
  Notation run_ops := (run_ops S react on_connect on_tls seg).

  (* For every history of calls in which connect() is always asked for TLS, from any client
     state and any world: no credential is written in clear. *)
  Theorem session_tls_first : forall fuel ops st w,
    forallb tls_op ops = true ->
    exists new, w_log (snd (run_ops fuel ops st w)) = new ++ w_log w /\
                forall c tls d, In (WSend c tls d) new -> is_cred_send d = true -> tls = true.
  Proof.
    intros fuel ops. induction ops as [|o t IH]; intros st w Hops; cbn [run_ops].
    - exists []. split; [reflexivity | intros ? ? ? []].
    - cbn [forallb] in Hops. apply andb_true_iff in Hops. destruct Hops as [Ho Ht].
      destruct (tlsafe_sound S react on_connect on_tls seg _ false _
                  (run_op_tlsafe fuel o st Ho) w) as [new1 [E1 H1]]; [discriminate|].
      destruct (interp (run_op fuel o st) w) as [r w'] eqn:E. cbn [snd] in E1.
      destruct (IH (outcome_state r) w' Ht) as [new2 [E2 H2]].
      destruct (run_ops fuel t (outcome_state r) w') as [[rs st'] w'']. cbn [snd] in *.
      exists (new2 ++ new1). rewrite E2, E1, app_assoc. split; [reflexivity|].
      intros c tls d Hin Hd. apply in_app_or in Hin. destruct Hin as [Hin|Hin].
      + eapply H2; eauto.
      + destruct (H1 c tls d Hin) as [Htls|Hp]; [assumption | congruence].
  Qed.

  Corollary session_tls_first_init : forall fuel ops st w0,
    w_log w0 = [] -> forallb tls_op ops = true ->
    forall c tls d, In (WSend c tls d) (w_log (snd (run_ops fuel ops st w0))) ->
                    is_cred_send d = true -> tls = true.
  Proof.
    intros fuel ops st w0 H0 Hops c tls d Hin Hd.
    destruct (session_tls_first fuel ops st w0 Hops) as [new [E Hn]].
    rewrite E, H0, app_nil_r in Hin. eapply Hn; eauto.
  Qed.

  Corollary session_authenticate_under_tls : forall fuel ops st w0,
    w_log w0 = [] -> forallb tls_op ops = true ->
    forall c tls d, In (WSend c tls d) (w_log (snd (run_ops fuel ops st w0))) ->
                    is_auth_send d = true -> tls = true.
  Proof.
    intros fuel ops st w0 H0 Hops c tls d Hin Hd.
    eapply session_tls_first_init; eauto. unfold is_cred_send. rewrite Hd. reflexivity.
  Qed.
End TlsSessions.

(* non-vacuity of the classification: the credentials-carrying sends are recognised *)
Lemma cred_sends_recognised : forall args x,
  is_cred_send (command_bytes (bs "AUTHENTICATE") args) = true /\
  is_cred_send (dq x ++ CRLF) = true.
Proof.
  intros. split.
  - unfold is_cred_send. rewrite auth_command_recognised. reflexivity.
  - reflexivity.
Qed.

(* Non-vacuity of the session theorems, on a peer that announces SASL and STARTTLS and
   answers OK to everything: the traces do contain script commands and credentials. *)
Module Demo.
  Definition greeting : bytes :=
    bs """SASL"" ""PLAIN LOGIN""" ++ CRLF ++ bs """STARTTLS""" ++ CRLF ++ bs "OK" ++ CRLF.
  Definition react (_ : unit) (_ : bytes) : unit * bytes := (tt, bs "OK" ++ CRLF).
  Definition conn (_ : unit) : option (unit * bytes) := Some (tt, greeting).
  Definition seg (_ : nat) (b : bytes) : list bytes := [b].
  Definition w0 : world unit := mkW unit tt [] [] 0 0 false [].
  Definition log_of (ops : list op) : list wevent :=
    w_log (snd (run_ops unit react conn conn seg 20 ops c_init w0)).

  Definition sends (f : nat -> bool -> bytes -> bool) (log : list wevent) : nat :=
    List.length (filter (fun e => match e with WSend c t d => f c t d | _ => false end) log).

  Definition login := OConnect (bs "u") (bs "p") [] true (Some (bs "LOGIN")).

  (* connect over TLS with LOGIN, a script command, a second connect, a script command: the
     trace has two script commands, six credential sends (all of them under TLS) and one
     STARTTLS per connection in clear *)
  Example tls_session :
    let log := log_of [login; ODeletescript (bs "x"); login; OListscripts] in
    sends (fun _ _ d => is_script_send d) log = 2%nat /\
    sends (fun _ _ d => is_cred_send d) log = 6%nat /\
    sends (fun _ t d => is_cred_send d && negb t) log = 0%nat /\
    sends (fun _ t _ => negb t) log = 2%nat /\
    log_safe log = true.
  Proof. vm_compute. auto. Qed.

  Example refused_before_connect : log_of [ODeletescript (bs "x"); OListscripts] = [].
  Proof. vm_compute. reflexivity. Qed.

  (* Without use_tls nothing is promised: connect(starttls=False) writes AUTHENTICATE in
     clear, so the hypothesis [forallb tls_op ops = true] of [session_tls_first] is needed. *)
  Example clear_session :
    let log := log_of [OConnect (bs "u") (bs "p") [] false None; ODeletescript (bs "x")] in
    sends (fun _ t d => is_auth_send d && negb t) log = 1%nat /\
    sends (fun _ _ d => is_script_send d) log = 1%nat /\
    log_safe log = true.
  Proof. vm_compute. auto. Qed.
End Demo.

Print Assumptions guarded_refuses.
Print Assumptions run_op_tsafe.
Print Assumptions run_ops_Inv.
Print Assumptions trace_safe.
Print Assumptions trace_safe_explicit.
Print Assumptions connect_tls_only_starttls_in_clear.
Print Assumptions connect_tls_first.
Print Assumptions session_tls_first.
Print Assumptions session_authenticate_under_tls.
