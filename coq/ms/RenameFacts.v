(* RenameFacts.v — safety of the emulated rename (property C14: "Emulated rename never loses
   or overwrites a script"), proved for RenameAbs.rename_abs under every fault plan. *)
From Coq Require Import String.
From Coq Require Import List NArith Bool.
From SV Require Import Bytes BytesFacts Server RenameAbs.
Import ListNotations.

Lemma opt_beq_Some : forall a b, opt_beq (Some a) (Some b) = beq a b.
Proof. reflexivity. Qed.

Section Assoc.
Variable V : Type.
Implicit Types (m : list (bytes * V)) (k : bytes) (v : V).

Definition names m : list bytes := map fst m.

Lemma In_get_Some : forall k m, In k (names m) -> exists v, assoc_get k m = Some v.
Proof.
  intros k m H. destruct (assoc_get k m) eqn:E; [eauto|].
  apply get_none_notin in E. contradiction.
Qed.

End Assoc.
Arguments names {V} m.

Definition has (n : bytes) (s : sstate) : bool :=
  match assoc_get n (s_store s) with Some _ => true | None => false end.

Lemma exec_list : forall s, exec_command (bs "LISTSCRIPTS") [] s = Some (AnsListing, s).
Proof. intro s. reflexivity. Qed.

Lemma exec_get : forall n s,
  exec_command (bs "GETSCRIPT") [PStr n] s =
  match assoc_get n (s_store s) with
  | Some c => Some (AnsScript c, s)
  | None => Some (AnsNO (Some (bs "NONEXISTENT")), s)
  end.
Proof. intros n s. reflexivity. Qed.

Lemma exec_put : forall n c s,
  exec_command (bs "PUTSCRIPT") [PStr n; PStr c] s =
  if (cfg_maxsize (s_cfg s) <? blen c)%N then Some (AnsNO (Some (bs "QUOTA/MAXSIZE")), s)
  else if negb (has n s) && Nat.leb (cfg_maxscripts (s_cfg s)) (List.length (s_store s))
       then Some (AnsNO (Some (bs "QUOTA/MAXSCRIPTS")), s)
       else Some (AnsOK None, upd_store (assoc_set n c (s_store s)) (s_active s) s).
Proof. intros n c s. reflexivity. Qed.

Lemma exec_del : forall n s,
  exec_command (bs "DELETESCRIPT") [PStr n] s =
  if negb (has n s) then Some (AnsNO (Some (bs "NONEXISTENT")), s)
  else if opt_beq (Some n) (s_active s) then Some (AnsNO (Some (bs "ACTIVE")), s)
       else Some (AnsOK None, upd_store (assoc_del n (s_store s)) (s_active s) s).
Proof. intros n s. reflexivity. Qed.

Lemma exec_setactive : forall n s,
  exec_command (bs "SETACTIVE") [PStr n] s =
  match n with
  | [] => Some (AnsOK None, upd_store (s_store s) None s)
  | _ => if has n s then Some (AnsOK None, upd_store (s_store s) (Some n) s)
         else Some (AnsNO (Some (bs "NONEXISTENT")), s)
  end.
Proof. intros n s. reflexivity. Qed.

Lemma store_upd : forall st a s, s_store (upd_store st a s) = st.
Proof. reflexivity. Qed.
Lemma active_upd : forall st a s, s_active (upd_store st a s) = a.
Proof. reflexivity. Qed.

Definition active_ok (s : sstate) : Prop :=
  match s_active s with Some a => In a (map fst (s_store s)) | None => True end.

Lemma listing_old : forall s old,
  negb (opt_beq (Some old) (listing_active s)) && negb (mem old (listing_others s)) = false ->
  In old (names (s_store s)).
Proof.
  intros s old H. apply andb_false_iff in H. destruct H as [H|H]; apply negb_false_iff in H.
  - apply opt_beq_eq in H. unfold listing_active in H.
    destruct (s_active s) as [a|]; [|discriminate].
    destruct (mem a (map fst (s_store s))) eqn:M; [|discriminate].
    inversion H; subst. apply mem_In. exact M.
  - apply mem_In in H. unfold listing_others in H. apply filter_In in H. apply H.
Qed.

Lemma listing_new : forall s new,
  opt_beq (Some new) (listing_active s) || mem new (listing_others s) = false ->
  ~ In new (names (s_store s)).
Proof.
  intros s new H I. apply orb_false_iff in H. destruct H as [H1 H2].
  destruct (opt_beq (Some new) (s_active s)) eqn:A.
  - apply opt_beq_eq in A. unfold listing_active in H1. rewrite <- A in H1.
    apply mem_In in I. unfold names in I. rewrite I in H1.
    rewrite opt_beq_Some, beq_refl in H1. discriminate.
  - apply mem_false in H2. apply H2. unfold listing_others. apply filter_In.
    split; [exact I|]. rewrite A. reflexivity.
Qed.

Lemma listing_new_present : forall s new,
  In new (names (s_store s)) ->
  opt_beq (Some new) (listing_active s) || mem new (listing_others s) = true.
Proof.
  intros s new I.
  destruct (opt_beq (Some new) (listing_active s) || mem new (listing_others s)) eqn:E;
    [reflexivity|]. apply listing_new in E. contradiction.
Qed.

Lemma listing_active_old : forall s old,
  In old (names (s_store s)) ->
  opt_beq (listing_active s) (Some old) = opt_beq (s_active s) (Some old).
Proof.
  intros s old I. unfold listing_active. destruct (s_active s) as [a|]; [|reflexivity].
  destruct (mem a (map fst (s_store s))) eqn:M; [reflexivity|].
  cbn [opt_beq]. symmetry. apply beq_neq. intro E. subst a.
  apply mem_false in M. contradiction.
Qed.

(* the active script after a successful SETACTIVE n: the empty name deactivates *)
Definition act_after (n : bytes) : option bytes :=
  match n with [] => None | _ => Some n end.

Lemma rename_del_cases : forall f s old r s',
  rename_del f s old = (r, s') ->
  (r <> RTrue /\ s' = s) \/
  (r = RTrue /\ opt_beq (Some old) (s_active s) = false /\
   s' = upd_store (assoc_del old (s_store s)) (s_active s) s).
Proof.
  intros f s old r s'. unfold rename_del, run_cmd.
  destruct f; [rewrite exec_del; destruct (negb (has old s));
                 [|destruct (opt_beq (Some old) (s_active s)) eqn:A] | | |];
    intro H; inversion H; subst; try (left; split; [discriminate | reflexivity]).
  right. auto.
Qed.

(* every possible outcome of a call, whatever the fault plan *)
Inductive rename_spec (s : sstate) (old new : bytes) : aresult -> sstate -> Prop :=
(* the call stopped before PUTSCRIPT took effect: nothing has changed *)
| RS_same : forall r,
    r <> RTrue -> rename_spec s old new r s
(* it stopped after PUTSCRIPT, possibly after SETACTIVE: the copy is stored, old is still there *)
| RS_put : forall r c s',
    r <> RTrue ->
    assoc_get old (s_store s) = Some c ->
    ~ In new (names (s_store s)) ->
    s_store s' = assoc_set new (norm c) (s_store s) ->
    (s_active s' = s_active s \/ (s_active s = Some old /\ s_active s' = act_after new)) ->
    rename_spec s old new r s'
(* it ran to the end: old is deleted, the active marker has followed *)
| RS_done : forall c s',
    assoc_get old (s_store s) = Some c ->
    ~ In new (names (s_store s)) ->
    s_store s' = assoc_del old (assoc_set new (norm c) (s_store s)) ->
    s_active s' = (if opt_beq (s_active s) (Some old) then act_after new else s_active s) ->
    rename_spec s old new RTrue s'.

Lemma rename_abs_spec : forall plan s old new r s',
  rename_abs plan s old new = (r, s') -> rename_spec s old new r s'.
Proof.
  intros plan s old new r s'. unfold rename_abs.
  assert (SAME : forall r0, r0 <> RTrue -> (r0, s) = (r, s') -> rename_spec s old new r s').
  { intros r0 N E. inversion E; subst. apply RS_same. exact N. }
  unfold run_cmd at 1. destruct (plan 0%nat); try (apply SAME; discriminate).
  rewrite exec_list. unfold listing_of.
  destruct (negb (opt_beq (Some old) (listing_active s)) && negb (mem old (listing_others s)))
    eqn:C1; [apply SAME; discriminate|].
  destruct (opt_beq (Some new) (listing_active s) || mem new (listing_others s))
    eqn:C2; [apply SAME; discriminate|].
  apply listing_old in C1. apply listing_new in C2.
  rewrite (listing_active_old _ _ C1).
  destruct (In_get_Some _ _ _ C1) as [c Hc].
  unfold run_cmd at 1. destruct (plan 1%nat); try (apply SAME; discriminate).
  rewrite exec_get, Hc.
  unfold run_cmd at 1. destruct (plan 2%nat); try (apply SAME; discriminate).
  rewrite exec_put.
  destruct (cfg_maxsize (s_cfg s) <? blen (norm c))%N; [apply SAME; discriminate|].
  destruct (negb (has new s) && Nat.leb (cfg_maxscripts (s_cfg s)) (List.length (s_store s)));
    [apply SAME; discriminate|].
  set (s1 := upd_store (assoc_set new (norm c) (s_store s)) (s_active s) s).
  assert (PUT : forall r0 s0, r0 <> RTrue -> s_store s0 = s_store s1 ->
                  (s_active s0 = s_active s \/
                   (s_active s = Some old /\ s_active s0 = act_after new)) ->
                  (r0, s0) = (r, s') -> rename_spec s old new r s').
  { intros r0 s0 N E1 E2 E. inversion E; subst r0 s0.
    eapply RS_put; eauto. }
  assert (DEL : forall f s2, s_store s2 = s_store s1 ->
                  s_active s2 = (if opt_beq (s_active s) (Some old)
                                 then act_after new else s_active s) ->
                  (s_active s2 = s_active s \/
                   (s_active s = Some old /\ s_active s2 = act_after new)) ->
                  rename_del f s2 old = (r, s') -> rename_spec s old new r s').
  { intros f s2 E1 E2 E3 H. apply rename_del_cases in H.
    destruct H as [[N E]|[E [A E']]]; subst.
    - eapply RS_put; eauto.
    - eapply RS_done; eauto. rewrite store_upd, E1. reflexivity. }
  destruct (opt_beq (s_active s) (Some old)) eqn:A.
  - apply opt_beq_eq in A.
    unfold run_cmd at 1. destruct (plan 3%nat);
      try (apply PUT; [discriminate | reflexivity | left; reflexivity]).
    rewrite exec_setactive.
    destruct new as [|x new'].
    + apply DEL; [reflexivity | reflexivity | right; split; [exact A | reflexivity]].
    + destruct (has (x :: new') s1).
      * apply DEL; [reflexivity | reflexivity | right; split; [exact A | reflexivity]].
      * apply PUT; [discriminate | reflexivity | left; reflexivity].
  - apply DEL; [reflexivity | reflexivity | left; reflexivity].
Qed.

Lemma spec_old_new_distinct : forall s old new c,
  assoc_get old (s_store s) = Some c -> ~ In new (names (s_store s)) -> old <> new.
Proof.
  intros s old new c G N E. subst new. apply N. eapply get_some_in. exact G.
Qed.

Section Safety.
Variables (plan : nat -> fault) (s s' : sstate) (old new : bytes) (r : aresult).
Hypothesis CALL : rename_abs plan s old new = (r, s').

(* (i) every script other than old and new is untouched (no invariant needed) *)
Theorem rename_untouched : forall n c,
  n <> old -> n <> new ->
  (assoc_get n (s_store s) = Some c <-> assoc_get n (s_store s') = Some c).
Proof.
  intros n c NO NN. destruct (rename_abs_spec _ _ _ _ _ _ CALL) as [r0 _|r0 c0 s0 _ _ _ ST _|c0 s0 _ _ ST _].
  - tauto.
  - rewrite ST, get_set_other by exact NN. tauto.
  - rewrite ST, get_del_other, get_set_other by assumption. tauto.
Qed.

(* (i') an existing target is never written: the call changes nothing at all and does not
   report success.  (Holds also when old = new.) *)
Theorem rename_existing_target : forall c,
  assoc_get new (s_store s) = Some c -> s' = s /\ r <> RTrue.
Proof.
  intros c G. apply get_some_in in G.
  destruct (rename_abs_spec _ _ _ _ _ _ CALL) as [r0 N|r0 c0 s0 _ _ NI _ _|c0 s0 _ NI _ _];
    [auto | contradiction | contradiction].
Qed.

Corollary rename_never_overwrites : forall c,
  assoc_get new (s_store s) = Some c ->
  assoc_get new (s_store s') = Some c /\ r <> RTrue.
Proof.
  intros c G. destruct (rename_existing_target c G) as [E N]. subst s'. auto.
Qed.

(* (ii) nothing is lost: the content of old is still stored under old, or (normalised as
   getscript returns it) under new (no invariant needed) *)
Theorem rename_nothing_lost : forall c,
  assoc_get old (s_store s) = Some c ->
  assoc_get old (s_store s') = Some c \/ assoc_get new (s_store s') = Some (norm c).
Proof.
  intros c G. destruct (rename_abs_spec _ _ _ _ _ _ CALL) as [r0 _|r0 c0 s0 _ G0 NI ST _|c0 s0 G0 NI ST _].
  - auto.
  - left. rewrite ST, get_set_other; [exact G|]. eapply spec_old_new_distinct; eauto.
  - right. assert (c0 = c) by congruence. subst c0.
    rewrite ST, get_del_other, get_set_same; [reflexivity|].
    intro E. symmetry in E. revert E. eapply spec_old_new_distinct; eauto.
Qed.

Theorem rename_true_distinct : r = RTrue -> old <> new.
Proof.
  intro R. destruct (rename_abs_spec _ _ _ _ _ _ CALL) as [r0 N|r0 c0 s0 N _ _ _ _|c0 s0 G0 NI _ _];
    [contradiction | contradiction |]. eapply spec_old_new_distinct; eauto.
Qed.

(* (iii) success: old is gone, new holds the normalised content of old, new did not exist
   before, and the active marker followed the script.  [act_after new] is [Some new] except
   for the empty name (see rename_success_active and the counterexample below). *)
Theorem rename_success :
  NoDup (map fst (s_store s)) -> r = RTrue ->
  assoc_get old (s_store s') = None /\
  (exists c, assoc_get old (s_store s) = Some c /\ assoc_get new (s_store s') = Some (norm c)) /\
  assoc_get new (s_store s) = None /\
  s_active s' = (if opt_beq (s_active s) (Some old) then act_after new else s_active s).
Proof.
  intros ND R. destruct (rename_abs_spec _ _ _ _ _ _ CALL) as [r0 N|r0 c0 s0 N _ _ _ _|c0 s0 G0 NI ST AC];
    [contradiction | contradiction |].
  assert (D : old <> new) by (eapply spec_old_new_distinct; eauto).
  split; [|split; [|split]].
  - rewrite ST. apply get_del_same. apply nodup_set. exact ND.
  - exists c0. split; [exact G0|].
    rewrite ST, get_del_other, get_set_same; [reflexivity | congruence].
  - apply get_none_notin. exact NI.
  - exact AC.
Qed.

(* (iii, active part as an equivalence) needs new <> "": SETACTIVE "" deactivates *)
Theorem rename_success_active :
  active_ok s -> new <> [] -> r = RTrue ->
  (s_active s' = Some new <-> s_active s = Some old).
Proof.
  intros AO NE R. destruct (rename_abs_spec _ _ _ _ _ _ CALL) as [r0 N|r0 c0 s0 N _ _ _ _|c0 s0 G0 NI ST AC];
    [contradiction | contradiction |].
  rewrite AC. destruct (opt_beq (s_active s) (Some old)) eqn:A.
  - apply opt_beq_eq in A. destruct new; [contradiction|]. cbn [act_after]. tauto.
  - split.
    + intro E. exfalso. unfold active_ok in AO. rewrite E in AO. contradiction.
    + intro E. rewrite E, opt_beq_Some, beq_refl in A. discriminate.
Qed.

(* (iii) in the form of the C14 statement, under the server invariants and new <> "" *)
Corollary rename_success_C14 :
  NoDup (map fst (s_store s)) -> active_ok s -> new <> [] -> r = RTrue ->
  old <> new /\
  assoc_get old (s_store s') = None /\
  (exists c, assoc_get old (s_store s) = Some c /\ assoc_get new (s_store s') = Some (norm c)) /\
  (s_active s' = Some new <-> s_active s = Some old).
Proof.
  intros ND AO NE R. destruct (rename_success ND R) as [H1 [H2 _]].
  split; [apply rename_true_distinct; exact R|].
  split; [exact H1|]. split; [exact H2|]. apply rename_success_active; assumption.
Qed.

(* (iv) an active script other than old stays active (no invariant needed) *)
Theorem rename_other_active : forall a,
  s_active s = Some a -> a <> old -> s_active s' = Some a.
Proof.
  intros a A D. destruct (rename_abs_spec _ _ _ _ _ _ CALL) as [r0 _|r0 c0 s0 _ _ _ _ AC|c0 s0 _ _ _ AC].
  - exact A.
  - destruct AC as [AC|[AC _]]; congruence.
  - rewrite AC, A, opt_beq_Some. apply beq_neq in D. rewrite D. reflexivity.
Qed.

(* (v) the server invariants are preserved *)
Theorem rename_invariants :
  NoDup (map fst (s_store s)) -> active_ok s ->
  NoDup (map fst (s_store s')) /\ active_ok s'.
Proof.
  intros ND AO. destruct (rename_abs_spec _ _ _ _ _ _ CALL) as [r0 _|r0 c0 s0 _ G0 NI ST AC|c0 s0 G0 NI ST AC].
  - auto.
  - split.
    + rewrite ST. apply nodup_set. exact ND.
    + unfold active_ok in *. rewrite ST. destruct AC as [AC|[_ AC]]; rewrite AC.
      * destruct (s_active s) as [a|]; [|exact I]. apply keys_set. auto.
      * destruct new; cbn [act_after]; [exact I|]. apply keys_set. auto.
  - assert (D : old <> new) by (eapply spec_old_new_distinct; eauto).
    split.
    + rewrite ST. apply nodup_del. apply nodup_set. exact ND.
    + unfold active_ok in *. rewrite ST, AC.
      destruct (opt_beq (s_active s) (Some old)) eqn:A.
      * destruct new as [|x n']; cbn [act_after]; [exact I|].
        apply keys_del_intro; [congruence|]. apply keys_set. auto.
      * destruct (s_active s) as [a|]; [|exact I].
        rewrite opt_beq_Some in A. apply beq_neq in A.
        apply keys_del_intro; [exact A|]. apply keys_set. auto.
Qed.

End Safety.

Definition ex_cfg : config :=
  mkCfg (bs "PLAIN") (bs "PLAIN") false false (bs "user") (bs "pass") 1000%N 10%nat true.

(* scripts "a" (active, content "x" CR LF "y") and "b" *)
Definition ex_state : sstate :=
  mkS ex_cfg [(bs "a", [120; 13; 10; 121]%N); (bs "b", bs "z")] (Some (bs "a"))
      true false ANone [] [] [] 0 0 [].

Definition no_fault : nat -> fault := fun _ => FNone.

Example ex_invariants : NoDup (map fst (s_store ex_state)) /\ active_ok ex_state.
Proof.
  split.
  - vm_compute. constructor; [intros [H|[]]; discriminate H|].
    constructor; [intros []|]. constructor.
  - vm_compute. left. reflexivity.
Qed.

(* renaming the active script succeeds: 5 commands, content normalised, marker follows *)
Example ex_rename_ok :
  let '(r, s') := rename_abs no_fault ex_state (bs "a") (bs "c") in
  r = RTrue /\
  s_store s' = [(bs "b", bs "z"); (bs "c", [120; 10; 121]%N)] /\
  s_active s' = Some (bs "c").
Proof. vm_compute. repeat split. Qed.

(* renaming a non-active script succeeds with 4 commands; the active one is untouched *)
Example ex_rename_ok_inactive :
  let '(r, s') := rename_abs no_fault ex_state (bs "b") (bs "c") in
  r = RTrue /\
  s_store s' = [(bs "a", [120; 13; 10; 121]%N); (bs "c", bs "z")] /\
  s_active s' = Some (bs "a").
Proof. vm_compute. repeat split. Qed.

Example ex_rename_onto_active :
  rename_abs no_fault ex_state (bs "b") (bs "a") = (RFalse, ex_state).
Proof. vm_compute. reflexivity. Qed.

Example ex_rename_missing :
  rename_abs no_fault ex_state (bs "nope") (bs "c") = (RFalse, ex_state).
Proof. vm_compute. reflexivity. Qed.

(* the connection dies before DELETESCRIPT (command 4): Error, and both names are stored —
   the emulation is safe (nothing lost) but not atomic; this is the disjunction in
   rename_nothing_lost *)
Example ex_rename_interrupted :
  let '(r, s') := rename_abs (fun n => if Nat.eqb n 4 then FBye else FNone)
                             ex_state (bs "a") (bs "c") in
  r = RError /\
  s_store s' = [(bs "a", [120; 13; 10; 121]%N); (bs "b", bs "z"); (bs "c", [120; 10; 121]%N)] /\
  s_active s' = Some (bs "c").
Proof. vm_compute. repeat split. Qed.

(* counterexample to "s_active s' = Some new <-> s_active s = Some old" without new <> "":
   the reference server accepts PUTSCRIPT "" and treats SETACTIVE "" as "deactivate", so
   renaming the active script to the empty name reports success with no active script *)
Example ex_rename_to_empty_name :
  let '(r, s') := rename_abs no_fault ex_state (bs "a") [] in
  r = RTrue /\
  s_store s' = [(bs "b", bs "z"); ([], [120; 10; 121]%N)] /\
  s_active s' = None.
Proof. vm_compute. repeat split. Qed.

(* active_ok is needed for the "->" direction of rename_success_active: if the server's
   active marker dangles on the (not stored) name new, the listing shows no active script,
   the rename b -> c succeeds and c ends up active although b was not *)
Example ex_rename_dangling_active :
  let s := mkS ex_cfg (s_store ex_state) (Some (bs "c")) true false ANone [] [] [] 0 0 [] in
  let '(r, s') := rename_abs no_fault s (bs "b") (bs "c") in
  r = RTrue /\ s_active s' = Some (bs "c") /\ s_active s <> Some (bs "b").
Proof. vm_compute. repeat split. discriminate. Qed.

Example ex_rename_quota :
  let s := mkS (mkCfg [] [] false false [] [] 1000%N 2%nat true)
               (s_store ex_state) (s_active ex_state) true false ANone [] [] [] 0 0 [] in
  rename_abs no_fault s (bs "a") (bs "c") = (RFalse, s).
Proof. vm_compute. reflexivity. Qed.

Print Assumptions rename_abs_spec.
Print Assumptions rename_untouched.
Print Assumptions rename_existing_target.
Print Assumptions rename_never_overwrites.
Print Assumptions rename_nothing_lost.
Print Assumptions rename_true_distinct.
Print Assumptions rename_success.
Print Assumptions rename_success_active.
Print Assumptions rename_success_C14.
Print Assumptions rename_other_active.
Print Assumptions rename_invariants.
