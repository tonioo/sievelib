(* C14/C15: whole sessions against the reference server, stated against a FUNCTIONAL specification over the server's
   data (store, active script, configuration) -- including the emulated RENAMESCRIPT of clients whose server does not
   announce VERSION, which issues up to five commands per call.

   spec_op ver o s: the value the client call returns and the data the server is left with; ver = the server
   announced VERSION (native RENAMESCRIPT / CHECKSCRIPT) or not (emulated rename, CHECKSCRIPT not covered).
   The theorem: for every list of operations on which the specification is defined, with any fuel above the size
   of the store plus the length of the session (and at least 6, for the capability lines) and any sequence of
   encoding choices of the server, the client
   returns exactly the specified values, the server's data end as specified and nothing is left in either buffer. *)
From Coq Require Import String.
From Coq Require Import List NArith Bool Arith Lia.
From SV Require Import Bytes BytesFacts Base64 Client Transport Server Session WriterFacts StatusFacts DecodeFacts DataFacts
  SessionFacts SessionData TlsInv CapFacts RenameAbs RenameFacts RenameData Spec.
Import ListNotations.
Local Open Scope nat_scope.


(* the specification of ms/Spec.v, written with the client's own argument encoding *)
Definition spec_op_alt (ver : bool) (o : op) (s : sstate) : option (value * sstate) :=
  match o with
  | OListscripts => Some (VListing (fst (listing_of s)) (snd (listing_of s)), s)
  | OGetscript n => match assoc_get n (s_store s) with Some c => Some (VBytes (norm c), s) | None => Some (VNone, s) end
  | OLogout => Some (VNone, s)
  | OCapability => Some (VBytes (capabilities_bytes s), s)
  | _ =>
      match op_command o with
      | Some (verb, args) =>
          if negb (needs_version o) || ver then
            match exec_command verb (map decode_arg args) s with
            | Some (a, s') => Some (VBool (answer_bool a), s')
            | None => None
            end
          else match o with
               | ORenamescript a b =>
                   let r := rename_abs (fun _ => FNone) s a b in
                   match of_aresult (fst r) with Some v => Some (v, snd r) | None => None end
               | _ => None
               end
      | None => None
      end
  end.

Lemma spec_op_eq : forall ver o s, spec_op ver o s = spec_op_alt ver o s.
Proof.
  intros ver o s. destruct o; try reflexivity; cbn [spec_op spec_op_alt op_request op_command op_needs_version needs_version map decode_arg];
    destruct (negb _ || ver); try reflexivity;
    match goal with |- context [exec_command ?v ?a s] => destruct (exec_command v a s) as [[[] ?]|] end; reflexivity.
Qed.

(* names that the session stores must be printable on one line of the listing *)
Definition op_ok (o : op) : Prop :=
  match o with
  | OPutscript n _ => name_ok n
  | ORenamescript _ n => name_ok n
  | _ => True
  end.

Definition outcome_value (o : outcome) : option value :=
  match o with ODone v _ => Some v | OFail _ _ => None end.

Section StoreFacts.
  Variable Q : bytes -> Prop.
  Let P := fun nc : bytes * bytes => Q (fst nc).

  Lemma forall_set : forall k v m, Forall P m -> Q k -> Forall P (assoc_set k v m).
  Proof.
    intros k v m H Hk. rewrite Forall_forall in *. intros x Hx.
    destruct (in_assoc_set _ k v m x Hx) as [Hi| ->]; [exact (H x Hi)|exact Hk].
  Qed.

  Lemma forall_del : forall k m, Forall P m -> Forall P (assoc_del k m).
  Proof. intros k m H. rewrite Forall_forall in *. intros x Hx. exact (H x (in_assoc_del _ k m x Hx)). Qed.

  Lemma forall_ren : forall o n m, Forall P m -> Q n ->
    Forall P (map (fun kv : bytes * bytes => if beq (fst kv) o then (n, snd kv) else kv) m).
  Proof.
    intros o n m H Hn. induction H as [|[k0 v0] m H0 H IH]; cbn [map]; constructor; [|exact IH].
    cbn [fst snd]. destruct (beq k0 o); [exact Hn|exact H0].
  Qed.
End StoreFacts.

Lemma length_set : forall (k v : bytes) m, length (assoc_set k v m) <= S (length m).
Proof.
  intros k v m. induction m as [|[k0 v0] m IH]; cbn [assoc_set length]; [lia|].
  destruct (beq k k0); cbn [length]; lia.
Qed.

Lemma length_del : forall (k : bytes) (m : list (bytes * bytes)), length (assoc_del k m) <= length m.
Proof.
  intros k m. induction m as [|[k0 v0] m IH]; cbn [assoc_del length]; [lia|].
  destruct (beq k k0); cbn [length]; lia.
Qed.

Definition args_ok (verb : bytes) (args : list parg) : Prop :=
  match args with
  | [PStr a; PStr b] => if beq verb (bs "RENAMESCRIPT") then name_ok b else name_ok a
  | _ => True
  end.

Lemma exec_store : forall verb args s a s',
  exec_command verb args s = Some (a, s') -> names_ok s -> args_ok verb args ->
  names_ok s' /\ length (s_store s') <= S (length (s_store s)).
Proof.
  intros verb args s a s' H Hn Hok. unfold names_ok in *.
  assert (K : forall ans, Some (ans, s) = Some (a, s') ->
                          Forall (fun nc => name_ok (fst nc)) (s_store s') /\ length (s_store s') <= S (length (s_store s)))
    by (intros ans E; inversion E; subst; auto).
  unfold exec_command in H.
  destruct (beq verb (bs "LISTSCRIPTS")); [destruct args; [exact (K _ H)|discriminate]|].
  destruct (beq verb (bs "GETSCRIPT")).
  { destruct args as [|[n|?] [|? ?]]; try discriminate. destruct (assoc_get n (s_store s)); exact (K _ H). }
  destruct (beq verb (bs "PUTSCRIPT")) eqn:Eput.
  { destruct args as [|[n|?] [|[c|?] [|? ?]]]; try discriminate.
    assert (Hnm : name_ok n). { unfold args_ok in Hok. apply beq_eq in Eput. subst verb. exact Hok. }
    destruct (cfg_maxsize (s_cfg s) <? blen c)%N; [exact (K _ H)|].
    destruct (negb _ && _); [exact (K _ H)|]. inversion H; subst. cbn [s_store upd_store].
    split; [apply forall_set; assumption|apply length_set]. }
  destruct (beq verb (bs "CHECKSCRIPT")).
  { destruct args as [|[c|?] [|? ?]]; try discriminate. destruct (cfg_version (s_cfg s)); [exact (K _ H)|discriminate]. }
  destruct (beq verb (bs "DELETESCRIPT")).
  { destruct args as [|[n|?] [|? ?]]; try discriminate.
    destruct (negb _); [exact (K _ H)|]. destruct (opt_beq _ _); [exact (K _ H)|]. inversion H; subst.
    cbn [s_store upd_store]. split; [apply forall_del; assumption|pose proof (length_del n (s_store s)); lia]. }
  destruct (beq verb (bs "SETACTIVE")).
  { destruct args as [|[n|?] [|? ?]]; try discriminate.
    destruct n; [|destruct (match assoc_get _ _ with Some _ => true | None => false end); [|exact (K _ H)]];
      inversion H; subst; cbn [s_store upd_store]; auto. }
  destruct (beq verb (bs "RENAMESCRIPT")) eqn:Eren.
  { destruct args as [|[o|?] [|[n|?] [|? ?]]]; try discriminate.
    assert (Hnm : name_ok n). { unfold args_ok in Hok. rewrite Eren in Hok. exact Hok. }
    destruct (negb (cfg_version (s_cfg s))); [discriminate|].
    destruct (assoc_get o (s_store s)); [|exact (K _ H)].
    destruct (match assoc_get n _ with Some _ => true | None => false end); [exact (K _ H)|]. inversion H; subst.
    cbn [s_store upd_store]. split; [apply forall_ren; assumption|rewrite map_length; lia]. }
  destruct (beq verb (bs "HAVESPACE")); [|discriminate].
  destruct args as [|[n|?] [|[?|sz] [|? ?]]]; try discriminate.
  destruct (cfg_maxsize (s_cfg s) <? sz)%N; exact (K _ H).
Qed.

(* the emulated rename keeps the invariants: it is at most PUTSCRIPT new, SETACTIVE new, DELETESCRIPT old *)
Lemma rename_abs_store : forall s old new,
  names_ok s -> name_ok new ->
  let r := rename_abs (fun _ => FNone) s old new in
  names_ok (snd r) /\ length (s_store (snd r)) <= S (length (s_store s)).
Proof.
  intros s old new Hn Hnew. cbv zeta.
  destruct (rename_abs (fun _ => FNone) s old new) as [r s'] eqn:E. cbn [snd]. unfold names_ok in *.
  pose proof (length_set new) as Ls. pose proof (length_del old) as Ld.
  destruct (rename_abs_spec _ _ _ _ _ _ E) as [r0 _|r0 c s0 _ _ _ ST _|c s0 _ _ ST _]; rewrite ?ST.
  - split; [exact Hn|lia].
  - split; [apply forall_set; assumption|apply Ls].
  - split; [apply forall_del, forall_set; assumption|].
    specialize (Ld (assoc_set new (norm c) (s_store s))). specialize (Ls (norm c) (s_store s)). lia.
Qed.

Lemma op_command_args_ok : forall o verb args, op_command o = Some (verb, args) -> op_ok o -> args_ok verb (map decode_arg args).
Proof.
  intros o verb args H Hok. destruct o; cbn [op_command] in H; try discriminate; inversion H; subst; exact Hok || exact I.
Qed.

(* what no step of the specification touches: the configuration and the TLS flag.  Every step of rename_abs is an
   exec_command, which only does upd_store (exec_frame). *)
Lemma run_cmd_keeps : forall f verb args s a s',
  run_cmd f verb args s = CAns a s' -> s_cfg s' = s_cfg s /\ Server.s_tls s' = Server.s_tls s.
Proof.
  intros f verb args s a s' H. unfold run_cmd in H. destruct f; try discriminate.
  destruct (exec_command verb args s) as [[a0 s0]|] eqn:E; [|discriminate]. inversion H; subst.
  destruct (exec_frame _ _ _ _ _ E) as (st & ac & ->). split; reflexivity.
Qed.

Lemma rename_del_keeps : forall f s old,
  s_cfg (snd (rename_del f s old)) = s_cfg s /\ Server.s_tls (snd (rename_del f s old)) = Server.s_tls s.
Proof.
  intros f s old. unfold rename_del.
  destruct (run_cmd f (bs "DELETESCRIPT") [PStr old] s) as [| |a s'] eqn:E; cbn [snd]; auto.
  destruct a; cbn [snd]; auto. apply (run_cmd_keeps _ _ _ _ _ _ E).
Qed.

Lemma rename_abs_keeps : forall plan s old new,
  s_cfg (snd (rename_abs plan s old new)) = s_cfg s /\ Server.s_tls (snd (rename_abs plan s old new)) = Server.s_tls s.
Proof.
  intros plan s old new. unfold rename_abs.
  destruct (run_cmd (plan 0) (bs "LISTSCRIPTS") [] s) as [| |a0 s0]; cbn [snd]; auto.
  destruct a0; cbn [snd]; auto.
  destruct (listing_of s) as [active others].
  destruct (negb (opt_beq (Some old) active) && negb (mem old others)); cbn [snd]; auto.
  destruct (opt_beq (Some new) active || mem new others); cbn [snd]; auto.
  destruct (run_cmd (plan 1) (bs "GETSCRIPT") [PStr old] s) as [| |a1 s1']; cbn [snd]; auto.
  destruct a1; cbn [snd]; auto.
  destruct (run_cmd (plan 2) (bs "PUTSCRIPT") [PStr new; PStr (norm content)] s) as [| |a2 s2] eqn:E2; cbn [snd]; auto.
  destruct a2; cbn [snd]; auto.
  destruct (run_cmd_keeps _ _ _ _ _ _ E2) as (K1 & K2).
  destruct (opt_beq active (Some old)).
  - destruct (run_cmd (plan 3) (bs "SETACTIVE") [PStr new] s2) as [| |a3 s3] eqn:E3; cbn [snd]; auto.
    destruct a3; cbn [snd]; auto.
    destruct (run_cmd_keeps _ _ _ _ _ _ E3) as (K3 & K4).
    destruct (rename_del_keeps (plan 4) s3 old) as (K5 & K6). split; congruence.
  - destruct (rename_del_keeps (plan 3) s2 old) as (K5 & K6). split; congruence.
Qed.

Lemma spec_op_keeps : forall ver o s v s',
  spec_op ver o s = Some (v, s') -> s_cfg s' = s_cfg s /\ Server.s_tls s' = Server.s_tls s.
Proof.
  intros ver o s v s' H. rewrite spec_op_eq in H.
  assert (Hex : forall verb args,
            match exec_command verb args s with Some (a, s2) => Some (VBool (answer_bool a), s2) | None => None end = Some (v, s') ->
            s_cfg s' = s_cfg s /\ Server.s_tls s' = Server.s_tls s).
  { intros verb args E. destruct (exec_command verb args s) as [[a s2]|] eqn:Ex; [|discriminate]. inversion E; subst.
    destruct (exec_frame _ _ _ _ _ Ex) as (x & y & ->). split; reflexivity. }
  destruct o; cbn [spec_op_alt op_command needs_version negb orb] in H; try discriminate;
    try (inversion H; subst; auto; fail); try (apply (Hex _ _ H)).
  - destruct (assoc_get name (s_store s)); inversion H; subst; auto.
  - destruct ver; [apply (Hex _ _ H)|]. cbv zeta in H.
    destruct (of_aresult (fst (rename_abs (fun _ => FNone) s oldname newname))); [|discriminate]. inversion H; subst.
    apply rename_abs_keeps.
  - destruct ver; [apply (Hex _ _ H)|discriminate].
Qed.

Lemma spec_op_alt_command : forall ver o s verb args,
  op_command o = Some (verb, args) ->
  spec_op_alt ver o s =
  if negb (needs_version o) || ver then
    match exec_command verb (map decode_arg args) s with
    | Some (a, s') => Some (VBool (answer_bool a), s')
    | None => None
    end
  else match o with
       | ORenamescript a b =>
           let r := rename_abs (fun _ => FNone) s a b in
           match of_aresult (fst r) with Some v => Some (v, snd r) | None => None end
       | _ => None
       end.
Proof. intros ver o s verb args H. destruct o; try discriminate H; inversion H; reflexivity. Qed.

Definition runs_as (p : prog) (st : cstate) (w : sworld sstate) (s : sstate) (v : value) (s' : sstate) : Prop :=
  exists st1 w1,
    runS p w = (ODone v st1, w1) /\
    c_auth st1 = true /\ c_caps st1 = c_caps st /\
    ok_world w1 /\ same_data s' (s_peer sstate w1) /\ names_ok s' /\ length (s_store s') <= S (length (s_store s)).

Lemma data_op_done : forall p st st1 v (w : sworld sstate) s s3 verb args,
  runS p w = runS (finish st1 v) (after_send verb args s3 [] w) ->
  c_auth st1 = true -> c_caps st1 = c_caps st ->
  ok_world w -> same_data s (s_peer sstate w) -> stepped (s_peer sstate w) (s_peer sstate w) s3 -> names_ok s ->
  runs_as p st w s v s.
Proof.
  intros p st st1 v w s s3 verb args R A1 C1 (Hs & Hc) D Hst Hn.
  exists st1, (after_send verb args s3 [] w). split; [exact R|]. split; [exact A1|]. split; [exact C1|].
  split; [split; [reflexivity|exact (stepped_conforming _ _ _ Hc Hst)]|].
  split; [exact (stepped_same_data _ _ _ _ Hst D eq_refl)|]. split; [exact Hn|lia].
Qed.

Lemma simple_op_runs : forall F o verb args st (w : sworld sstate) s a s',
  c_auth st = true -> ok_world w -> same_data s (s_peer sstate w) -> names_ok s -> op_ok o -> 1 <= F ->
  op_command o = Some (verb, args) -> (needs_version o = true -> has_cap (bs "VERSION") st = true) ->
  exec_command verb (map decode_arg args) s = Some (a, s') ->
  runs_as (run_op F o st) st w s (VBool (answer_bool a)) s'.
Proof.
  intros F o verb args st w s a s' Ha (Hs & Hc) D Hn Hok HF Eo Hv Ex.
  destruct (conforming_live _ Hc) as (Hl & Hf).
  destruct (srv_step_congr _ _ _ _ _ _ D Ex) as (s2 & E2 & Hsd2 & Hcfg).
  destruct (simple_cmd_run F verb args st w a s2 finish (op_command_verb _ _ _ Eo) Hs Hl Hf E2 HF) as (R & Hst).
  destruct (exec_store _ _ _ _ _ Ex Hn (op_command_args_ok _ _ _ Eo Hok)) as (N2 & L2).
  destruct (answer_state_keeps a (fst (pick s2)) st) as (K1 & K2).
  rewrite (run_op_simple F o st verb args Eo Ha Hv). eexists _, _. split; [exact R|].
  split; [congruence|]. split; [exact K2|].
  split; [split; [reflexivity|exact (stepped_conforming _ _ _ Hc Hst)]|].
  split; [exact (stepped_same_data _ _ _ _ Hst Hsd2 Hcfg)|]. split; [exact N2|exact L2].
Qed.

Lemma emulated_rename_runs : forall F old new st (w : sworld sstate) s v,
  c_auth st = true -> has_cap (bs "VERSION") st = false -> ok_world w -> same_data s (s_peer sstate w) ->
  names_ok s -> name_ok new -> length (s_store s) < F -> 3 <= F ->
  of_aresult (fst (rename_abs (fun _ => FNone) s old new)) = Some v ->
  runs_as (renamescript F old new st finish) st w s v (snd (rename_abs (fun _ => FNone) s old new)).
Proof.
  intros F old new st w s v Ha Hver Hw D Hn Hnew HF HF3 Er.
  destruct (rename_emulated_refines_st F old new st w s Ha Hver Hw D Hn HF HF3) as (out & w1 & R & A & Hw1 & D1 & Ha1 & Hc1).
  destruct (rename_abs_store s old new Hn Hnew) as (N1 & L1).
  destruct out as [v1 st1|e st1]; [|discriminate].
  assert (v1 = v).
  { destruct (fst (rename_abs (fun _ => FNone) s old new)); cbn in Er; inversion Er; subst v;
      destruct v1 as [|[]|?|? ?]; cbn in A; congruence. }
  subst v1. exists st1, w1. split; [exact R|]. cbn [outcome_state] in Ha1, Hc1. repeat (split; [assumption|]). exact L1.
Qed.

(* fuel: the size of the store for a listing, and 6 for CAPABILITY (capability_k_gen); the other operations need less *)
Theorem spec_op_runs : forall F ver o st (w : sworld sstate) s v s',
  c_auth st = true -> has_cap (bs "VERSION") st = ver -> ok_world w -> same_data s (s_peer sstate w) ->
  Server.s_tls s = Server.s_tls (s_peer sstate w) -> sasl_safe s ->
  names_ok s -> op_ok o -> length (s_store s) < F -> 6 <= F ->
  spec_op ver o s = Some (v, s') ->
  exists st1 w1,
    runS (run_op F o st) w = (ODone v st1, w1) /\
    c_auth st1 = true /\ c_caps st1 = c_caps st /\
    ok_world w1 /\ same_data s' (s_peer sstate w1) /\ names_ok s' /\ length (s_store s') <= S (length (s_store s)).
Proof.
  intros F ver o st w s v s' Ha Hver Hw D Htls Hsafe Hn Hok HF HF6 Hspec. rewrite spec_op_eq in Hspec.
  change (runs_as (run_op F o st) st w s v s').
  destruct (op_command o) as [[verb args]|] eqn:Eo.
  - rewrite (spec_op_alt_command ver o s verb args Eo) in Hspec.
    destruct (negb (needs_version o) || ver) eqn:Ev.
    + destruct (exec_command verb (map decode_arg args) s) as [[a s2]|] eqn:Ex; [|discriminate].
      inversion Hspec; subst v s'.
      apply (simple_op_runs F o verb args st w s a s2 Ha Hw D Hn Hok ltac:(lia) Eo); [|exact Ex].
      intro Hnv. rewrite Hnv in Ev. cbn [negb orb] in Ev. congruence.
    + apply orb_false_iff in Ev. destruct Ev as (_ & ->).
      destruct o; try discriminate Hspec. cbv zeta in Hspec.
      destruct (of_aresult (fst (rename_abs (fun _ => FNone) s oldname newname))) as [v0|] eqn:Er; [|discriminate].
      inversion Hspec; subst v0 s'.
      exact (emulated_rename_runs F oldname newname st w s v Ha Hver Hw D Hn Hok HF ltac:(lia) Er).
  - pose proof Hw as (Hs & Hc). destruct (conforming_live _ Hc) as (Hl & Hf).
    assert (Dstore : s_store (s_peer sstate w) = s_store s) by apply D.
    destruct o; try discriminate Eo; cbn [spec_op_alt] in Hspec; try discriminate Hspec; cbn [run_op].
    + inversion Hspec; subst v s'. destruct F as [|f]; [lia|].
      destruct (logout_k_gen f st w finish Hs Hl Hf) as (s3 & R & Hst).
      exact (data_op_done _ st st VNone w s s3 _ _ R Ha eq_refl Hw D Hst Hn).
    + inversion Hspec; subst v s'.
      assert (Hsafe' : sasl_safe (s_peer sstate w)).
      { destruct D as (_ & _ & X). unfold sasl_safe in *. rewrite X. exact Hsafe. }
      replace F with (S (5 + (F - 6))) by lia.
      destruct (capability_k_gen (F - 6) st w finish Hs Hl Hf Hsafe') as (s3 & R & Hst).
      assert (Ec : capabilities_bytes (s_peer sstate w) = capabilities_bytes s)
        by (unfold capabilities_bytes; destruct D as (_ & _ & ->); rewrite Htls; reflexivity).
      rewrite Ec in R.
      exact (data_op_done _ st st _ w s s3 _ _ R Ha eq_refl Hw D Hst Hn).
    + inversion Hspec; subst v s'.
      destruct (listscripts_run F st w finish Ha Hs Hl Hf (names_ok_same _ _ D Hn) ltac:(rewrite Dstore; exact HF)) as (R & Hst).
      change (listing_active s) with (fst (listing_of s)). change (listing_others s) with (snd (listing_of s)).
      rewrite <- (listing_of_same_data _ _ D), <- listing_of_eq. cbn [fst snd].
      exact (data_op_done _ st st _ w s _ _ _ R Ha eq_refl Hw D Hst Hn).
    + destruct (assoc_get name (s_store s)) as [c|] eqn:Eg; rewrite <- Dstore in Eg; inversion Hspec; subst v s'.
      * destruct (getscript_run F name c st w finish Ha Hs Hl Hf Eg ltac:(lia)) as (R & Hst).
        exact (data_op_done _ st st _ w s _ _ _ R Ha eq_refl Hw D Hst Hn).
      * destruct F as [|f]; [lia|].
        destruct (getscript_missing_k_gen f name st w finish Ha Hs Hl Hf Eg) as (c & s3 & R & Hst).
        exact (data_op_done _ st _ VNone w s s3 _ _ R Ha eq_refl Hw D Hst Hn).
Qed.

(* the same with what the session carries along: the TLS flag and the SASL lists never change *)
Theorem spec_op_runs_inv : forall F ver o st (w : sworld sstate) s v s',
  c_auth st = true -> has_cap (bs "VERSION") st = ver -> ok_world w -> same_data s (s_peer sstate w) ->
  Server.s_tls s = Server.s_tls (s_peer sstate w) -> sasl_safe s ->
  names_ok s -> op_ok o -> length (s_store s) < F -> 6 <= F ->
  spec_op ver o s = Some (v, s') ->
  exists st1 w1,
    runS (run_op F o st) w = (ODone v st1, w1) /\
    c_auth st1 = true /\ c_caps st1 = c_caps st /\
    ok_world w1 /\ same_data s' (s_peer sstate w1) /\ names_ok s' /\ length (s_store s') <= S (length (s_store s)) /\
    Server.s_tls s' = Server.s_tls (s_peer sstate w1) /\ sasl_safe s'.
Proof.
  intros F ver o st w s v s' Ha Hver Hw D Htls Hsafe Hn Hok HF HF6 Hspec.
  destruct (spec_op_runs F ver o st w s v s' Ha Hver Hw D Htls Hsafe Hn Hok HF HF6 Hspec)
    as (st1 & w1 & R & A1 & C1 & Hw1 & D1 & N1 & L1).
  exists st1, w1. repeat (split; [assumption|]).
  destruct (spec_op_keeps ver o s v s' Hspec) as (K1 & K2).
  split.
  - pose proof (run_op_tls F o st w) as T. rewrite R in T. cbn [snd] in T.
    destruct o; try (rewrite K2, Htls; symmetry; exact T).
    rewrite spec_op_eq in Hspec. discriminate Hspec.
  - unfold sasl_safe in *. rewrite K1. exact Hsafe.
Qed.

Theorem session_refines_spec : forall ver ops F st (w : sworld sstate) s vals s',
  c_auth st = true -> has_cap (bs "VERSION") st = ver -> ok_world w -> same_data s (s_peer sstate w) ->
  Server.s_tls s = Server.s_tls (s_peer sstate w) -> sasl_safe s ->
  names_ok s -> Forall op_ok ops -> length (s_store s) + length ops < F -> 6 <= F ->
  spec_run ver ops s = Some (vals, s') ->
  exists outs st' w',
    run_ops_s sstate srv_react srv_connect srv_tls F ops st w = (outs, st', w') /\
    map outcome_value outs = map Some vals /\
    ok_world w' /\ same_data s' (s_peer sstate w') /\ names_ok s' /\
    c_auth st' = true /\ c_caps st' = c_caps st.
Proof.
  intros ver ops. induction ops as [|o t IH]; intros F st w s vals s' Ha Hver Hw D Htls Hsafe Hn Hok HF HF6 Hrun.
  - cbn in Hrun. inversion Hrun; subst. exists [], st, w. cbn [run_ops_s map]. repeat (split; [first [reflexivity|assumption]|]). reflexivity.
  - cbn [spec_run] in Hrun.
    destruct (spec_op ver o s) as [[v s1]|] eqn:E1; [|discriminate].
    destruct (spec_run ver t s1) as [[vs s2]|] eqn:E2; [|discriminate]. inversion Hrun; subst vals s'. clear Hrun.
    apply Forall_cons_iff in Hok. destruct Hok as (Hok1 & Hokt). cbn [length] in HF.
    destruct (spec_op_runs_inv F ver o st w s v s1 Ha Hver Hw D Htls Hsafe Hn Hok1 ltac:(lia) HF6 E1)
      as (st1 & w1 & R1 & Ha1 & Hc1 & Hw1 & D1 & N1 & L1 & T1 & Sf1).
    destruct (IH F st1 w1 s1 vs s2 Ha1 ltac:(unfold has_cap in *; rewrite Hc1; exact Hver) Hw1 D1 T1 Sf1 N1 Hokt ltac:(lia) HF6 E2)
      as (outs & st' & w' & Rr & Hv & Hw' & D' & N' & Ha' & Hc').
    exists (ODone v st1 :: outs), st', w'. cbn [run_ops_s]. rewrite R1. cbn [outcome_state]. rewrite Rr.
    split; [reflexivity|]. split; [cbn [map outcome_value]; rewrite Hv; reflexivity|].
    split; [exact Hw'|]. split; [exact D'|]. split; [exact N'|]. split; [exact Ha'|congruence].
Qed.

(* non-vacuity: a session with an emulated rename of the active script between listings *)
Definition ex_st_nover : cstate := mkC true None [] [].

Example session_rename_example :
  exists s',
    spec_run false [OPutscript (bs "b") (bs "stop;"); OSetactive (bs "b"); ORenamescript (bs "b") (bs "c");
                    ODeletescript (bs "a"); ORenamescript (bs "b") (bs "c");
                    OListscripts; OGetscript (bs "c"); ORenamescript (bs "zz") (bs "d")]
             demo_server =
    Some ([VBool true; VBool true; VBool false (* the server allows two scripts: the copy is refused *);
           VBool true; VBool true; VListing (Some (bs "c")) []; VBytes (bs "stop;"); VBool false], s') /\
    s_store s' = [(bs "c", bs "stop;")] /\ s_active s' = Some (bs "c").
Proof. eexists. vm_compute. repeat split. Qed.

Example session_capability_example :
  spec_run false [OCapability; OLogout] demo_server = Some ([VBytes (capabilities_bytes demo_server); VNone], demo_server) /\
  sasl_safe demo_server /\
  capabilities_bytes demo_server =
  bs ("""IMPLEMENTATION"" ""reference model""" ++ String (Ascii.ascii_of_nat 13) (String (Ascii.ascii_of_nat 10) "")
      ++ """SASL"" ""PLAIN""" ++ String (Ascii.ascii_of_nat 13) (String (Ascii.ascii_of_nat 10) "")
      ++ """SIEVE"" ""fileinto vacation""" ++ String (Ascii.ascii_of_nat 13) (String (Ascii.ascii_of_nat 10) "")
      ++ """VERSION"" ""1.0""" ++ String (Ascii.ascii_of_nat 13) (String (Ascii.ascii_of_nat 10) "")).
Proof.
  split; [reflexivity|]. split; [|vm_compute; reflexivity].
  split; vm_compute; repeat constructor; discriminate.
Qed.

Print Assumptions session_refines_spec.
