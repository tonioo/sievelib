(* C15: CAPABILITY end to end.  The reference server writes one line per capability (a quoted name, possibly a quoted
   value) and an OK reply; __read_response collects the lines one by one; Client.capability returns exactly the text
   the server wrote, the server's data are untouched and both buffers are empty.  The SASL lists of the
   configuration are assumed free of CR / LF. *)
From Coq Require Import String.
From Coq Require Import List NArith Bool Arith Lia.
From SV Require Import Bytes Base64 Client Transport Server Session WriterFacts StatusFacts DecodeFacts DataFacts
  SessionFacts SessionData.
Import ListNotations.
Local Open Scope nat_scope.


(* DataFacts.data_line, and not empty: no CR / LF inside, neither a literal header nor a status line *)
Definition plain_line (l : bytes) : Prop :=
  line_safe l /\ l <> [] /\ scan_size l = None /\ scan_status l = None.

Fixpoint lines_bytes (ls : list bytes) : bytes :=
  match ls with [] => [] | l :: t => l ++ CRLF ++ lines_bytes t end.

Section Run.
  Variable P : Type.
  Variable react : P -> bytes -> P * bytes.
  Variable oc : P -> option (P * bytes).
  Variable ot : P -> option (P * bytes).
  Notation run := (interp_s P react oc ot).

  Lemma read_response_lines_steps : forall ls f ql resp cpt st k,
    Forall plain_line ls ->
    exists cpt',
      steps P react oc ot (read_response (length ls + f) None ql resp cpt st k) (lines_bytes ls)
            (read_response f None ql (resp ++ lines_bytes ls) cpt' st k).
  Proof.
    induction ls as [|l ls IH]; intros f ql resp cpt st k Hall.
    - exists cpt. cbn [lines_bytes length plus]. rewrite app_nil_r. apply steps_refl.
    - inversion Hall as [|x xs (Hs & Hne & Hsz & Hst) Hxs]; subst.
      destruct (IH f ql (resp ++ l ++ CRLF) (S cpt) st k Hxs) as (cpt' & H).
      exists cpt'. cbn [lines_bytes length plus]. rewrite (app_assoc l CRLF), (app_assoc resp (l ++ CRLF)).
      exact (steps_trans P react oc ot _ _ _ _ _
               (read_response_line_steps P react oc ot l _ ql resp cpt st k (conj Hs (or_intror (conj Hsz Hst))) Hne) H).
  Qed.

  Theorem read_response_lines : forall ls r f ql resp cpt st k w rest,
    Forall plain_line ls -> reply_ok r ->
    s_stream P w = lines_bytes ls ++ render_reply r ++ rest ->
    run (read_response (S (length ls + f)) None ql resp cpt st k) w =
    match r_status r with
    | StOK => run (k st (Some (bs "OK")) (data_of r) (resp ++ lines_bytes ls)) (s_set P rest w)
    | StNO => run (k (set_err (code_of r) (text_of r) st) (Some (bs "NO")) (data_of r) (resp ++ lines_bytes ls)) (s_set P rest w)
    | StBYE => (OFail ExBye st, s_set P (after_line r ++ rest) w)
    end.
  Proof.
    intros ls r f ql resp cpt st k w rest Hall Hr E.
    destruct (read_response_lines_steps ls (S f) ql resp cpt st k Hall) as (cpt' & H).
    rewrite <- plus_n_Sm in H. exact (steps_reply P react oc ot _ _ r f _ _ _ _ st k w rest H Hr E).
  Qed.
End Run.

Definition cap_line (k : bytes) (v : option bytes) : bytes :=
  quote k ++ (match v with Some x => [32%N] ++ quote x | None => [] end).

Definition cap_lines (s : sstate) : list bytes :=
  [cap_line (bs "IMPLEMENTATION") (Some (bs "reference model"));
   cap_line (bs "SASL") (Some (if s_tls s then cfg_sasl_post (s_cfg s) else cfg_sasl_pre (s_cfg s)));
   cap_line (bs "SIEVE") (Some (bs "fileinto vacation"))]
  ++ (if cfg_starttls (s_cfg s) && negb (s_tls s) then [cap_line (bs "STARTTLS") None] else [])
  ++ (if cfg_version (s_cfg s) then [cap_line (bs "VERSION") (Some (bs "1.0"))] else []).

Lemma capabilities_lines : forall s, capabilities_bytes s = lines_bytes (cap_lines s).
Proof.
  intro s. unfold capabilities_bytes, cap_lines, cap_line.
  destruct (cfg_starttls (s_cfg s) && negb (s_tls s)), (cfg_version (s_cfg s));
    cbn [app lines_bytes]; repeat (rewrite <- !app_assoc; cbn [app]); rewrite ?app_nil_r; reflexivity.
Qed.

Lemma cap_line_plain : forall k v,
  line_safe k -> match v with Some x => line_safe x | None => True end -> plain_line (cap_line k v).
Proof.
  intros k v Hk Hv. unfold plain_line, cap_line. split; [|split; [|split]].
  - apply line_safe_app; [apply quote_safe; exact Hk|].
    destruct v as [x|]; [|constructor].
    apply line_safe_cons; [apply inl_lit; reflexivity|]. apply quote_safe. exact Hv.
  - unfold quote. discriminate.
  - unfold quote. reflexivity.
  - unfold quote. reflexivity.
Qed.

Definition sasl_safe (s : sstate) : Prop :=
  line_safe (cfg_sasl_pre (s_cfg s)) /\ line_safe (cfg_sasl_post (s_cfg s)).

Lemma cap_line_const : forall k v,
  contains_byte 10 k = false -> contains_byte 13 k = false ->
  contains_byte 10 v = false -> contains_byte 13 v = false -> plain_line (cap_line k (Some v)).
Proof. intros k v A B C D. apply cap_line_plain; apply line_safe_of_contains; assumption. Qed.

Lemma cap_lines_plain : forall s, sasl_safe s -> Forall plain_line (cap_lines s).
Proof.
  intros s (H1 & H2). unfold cap_lines.
  assert (Hsasl : line_safe (if s_tls s then cfg_sasl_post (s_cfg s) else cfg_sasl_pre (s_cfg s))) by (destruct (s_tls s); assumption).
  apply Forall_app. split; [|apply Forall_app; split].
  - apply Forall_cons; [apply cap_line_const; reflexivity|].
    apply Forall_cons; [apply cap_line_plain; [apply line_safe_of_contains; reflexivity|exact Hsasl]|].
    apply Forall_cons; [apply cap_line_const; reflexivity|apply Forall_nil].
  - destruct (cfg_starttls (s_cfg s) && negb (s_tls s)); [|apply Forall_nil].
    apply Forall_cons; [apply cap_line_plain; [apply line_safe_of_contains; reflexivity|exact I]|apply Forall_nil].
  - destruct (cfg_version (s_cfg s)); [|apply Forall_nil].
    apply Forall_cons; [apply cap_line_const; reflexivity|apply Forall_nil].
Qed.

Lemma cap_lines_length : forall s, length (cap_lines s) <= 5.
Proof.
  intro s. unfold cap_lines. destruct (cfg_starttls (s_cfg s) && negb (s_tls s)), (cfg_version (s_cfg s)); cbn; lia.
Qed.

(* fuel S (5 + f): at most five capability lines (cap_lines_length), then the status line *)
Theorem capability_k_gen : forall f st (w : sworld sstate) (k : kont),
  s_stream sstate w = [] -> live (s_peer sstate w) -> fault_now (s_peer sstate w) = FNone -> sasl_safe (s_peer sstate w) ->
  let s := s_peer sstate w in
  exists s3,
    runS (capability (S (5 + f)) st k) w =
    runS (k st (VBytes (capabilities_bytes s)))
     (mkSW sstate s3 [] (S (s_n sstate w)) (s_conn sstate w) (Transport.s_tls sstate w)
          (WSend (s_conn sstate w) (Transport.s_tls sstate w) (command_bytes (bs "CAPABILITY") []) :: s_log sstate w)) /\
    live s3 /\ s_faults s3 = s_faults s /\ s_count s3 = S (s_count s) /\
    s_store s3 = s_store s /\ s_active s3 = s_active s /\ s_cfg s3 = s_cfg s.
Proof.
  intros f st w k Hs Hl Hf Hsafe. cbv zeta. set (s := s_peer sstate w) in *.
  set (s2 := booked (bs "CAPABILITY") [] s).
  pose proof (stepped_booked (bs "CAPABILITY") [] s _ Hl (pick_sbc s2)) as Hst.
  exists (snd (pick s2)). split; [|exact Hst].
  set (r := mk_reply StOK None (bs "capability completed") (fst (pick s2))).
  assert (Hr : srv_react s (command_bytes (bs "CAPABILITY") []) = (snd (pick s2), capabilities_bytes s ++ render_reply r)).
  { apply (srv_react_one (bs "CAPABILITY") [] s _ _ ltac:(discriminate) ltac:(repeat constructor) (proj1 Hl));
      [|apply Hst].
    rewrite (handle_capability [] s Hf : handle (PCmd (upper (bs "CAPABILITY")) (map decode_arg []) []) s = _).
    cbn [render_answer]. rewrite reply_bytes_eq. reflexivity. }
  unfold capability. rewrite (run_send_command _ (bs "CAPABILITY") [] None false st _ w _ _ Hs Hr).
  rewrite capabilities_lines.
  pose proof (cap_lines_length s) as Hlen.
  replace (S (5 + f)) with (S (length (cap_lines s) + (5 - length (cap_lines s) + f))) by lia.
  rewrite (read_response_lines sstate srv_react srv_connect srv_tls (cap_lines s) r _ false [] 0 st _ _ []
             (cap_lines_plain s Hsafe) (reply_ok_mk StOK None _ _ I))
    by (cbn [s_stream after_send]; rewrite app_nil_r; reflexivity).
  cbn [r r_status mk_reply app]. change (is_ok (Some (bs "OK"))) with true. reflexivity.
Qed.

Print Assumptions capability_k_gen.
