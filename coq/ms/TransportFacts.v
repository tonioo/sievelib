(* TransportFacts.v — the concrete socket semantics refines the stream semantics:
   whatever the segmentation, a client program sees the same bytes. *)
From Coq Require Import List NArith Bool Lia Arith.
From SV Require Import Bytes BytesFacts Client Transport Session.
Import ListNotations.
Open Scope N_scope.

Definition nonempty (c : bytes) : Prop := c <> [].

Lemma blen_nil_iff : forall c : bytes, blen c = 0 <-> c = [].
Proof. intros c. unfold blen. destruct c; simpl; split; intro H; try reflexivity; try discriminate; lia. Qed.

(* taking or dropping n octets of b ++ r, with the part that falls into b counted in N as __read_block does *)
Lemma firstn_app_min : forall n (b r : bytes),
  firstn (N.to_nat n) (b ++ r) =
  firstn (N.to_nat (N.min n (blen b))) b ++ firstn (N.to_nat (n - N.min n (blen b))) r.
Proof.
  intros n b r. rewrite firstn_app. unfold blen. f_equal; [|f_equal; lia].
  destruct (N.le_gt_cases n (N.of_nat (length b))).
  - rewrite N.min_l by assumption. reflexivity.
  - rewrite N.min_r, !firstn_all2 by lia. reflexivity.
Qed.

Lemma skipn_app_min : forall n (b r : bytes),
  skipn (N.to_nat n) (b ++ r) =
  skipn (N.to_nat (N.min n (blen b))) b ++ skipn (N.to_nat (n - N.min n (blen b))) r.
Proof.
  intros n b r. rewrite skipn_app. unfold blen. f_equal; [|f_equal; lia].
  destruct (N.le_gt_cases n (N.of_nat (length b))).
  - rewrite N.min_l by assumption. reflexivity.
  - rewrite N.min_r, !skipn_all2 by lia. reflexivity.
Qed.

Lemma firstn_blen : forall b : bytes, firstn (N.to_nat (blen b)) b = b.
Proof. intro b. unfold blen. rewrite Nat2N.id. apply firstn_all. Qed.

Lemma skipn_blen : forall b : bytes, skipn (N.to_nat (blen b)) b = [].
Proof. intro b. unfold blen. rewrite Nat2N.id. apply skipn_all. Qed.

Lemma leb_sub_min : forall n b m, (n <=? b + m) = (n - N.min n b <=? m).
Proof. intros n b m. destruct (N.leb_spec n (b + m)); symmetry; [apply N.leb_le | apply N.leb_gt]; lia. Qed.

Lemma recv_split_spec : forall n c t d cs',
    0 < n -> nonempty c -> Forall nonempty t ->
    recv_split n c t = (d, cs') ->
    d ++ concat cs' = c ++ concat t /\ nonempty d /\ Forall nonempty cs'
    /\ (total_len cs' < total_len (c :: t))%nat /\ blen d <= n.
Proof.
  intros n c t d cs' Hn Hc Ht H. unfold recv_split in H.
  destruct (blen c <=? n) eqn:E.
  - inversion H; subst. repeat split; auto.
    + unfold total_len. simpl. rewrite app_length.
      destruct d; [contradiction Hc; reflexivity|simpl; lia].
    + apply N.leb_le. exact E.
  - inversion H; subst. clear H. apply N.leb_gt in E.
    assert (Hlen : (N.to_nat n < length c)%nat) by (unfold blen in E; lia).
    repeat split.
    + simpl. rewrite app_assoc. rewrite firstn_skipn. reflexivity.
    + intro H0. apply (f_equal (@length N)) in H0. rewrite firstn_length in H0. simpl in H0. lia.
    + constructor; auto. intro H0. apply (f_equal (@length N)) in H0.
      rewrite skipn_length in H0. simpl in H0. lia.
    + unfold total_len. simpl. rewrite !app_length, skipn_length. lia.
    + unfold blen. rewrite firstn_length. lia.
Qed.

Lemma rl_spec : forall fuel b cs,
    Forall nonempty cs -> (total_len cs < fuel)%nat ->
    match split_crlf (b ++ concat cs) with
    | Some (line, rest) =>
        exists r cs', rl fuel b cs = RLok line r cs' /\ r ++ concat cs' = rest /\ Forall nonempty cs'
    | None => rl fuel b cs = RLtimeout (b ++ concat cs)
    end.
Proof.
  induction fuel as [|f IH]; intros b cs Hne Hfuel; [lia|].
  cbn [rl].
  destruct (split_crlf b) as [[line rest]|] eqn:Eb.
  - rewrite (split_crlf_app _ _ _ (concat cs) Eb). exists rest, cs. auto.
  - destruct cs as [|c t].
    + simpl. rewrite app_nil_r. rewrite Eb. reflexivity.
    + inversion Hne as [|? ? Hc Ht]; subst.
      destruct c as [|c0 c']; [contradiction Hc; reflexivity|].
      destruct (recv_split READ_SIZE (c0 :: c') t) as [d cs'] eqn:Er.
      assert (Hpos : 0 < READ_SIZE) by (unfold READ_SIZE; lia).
      destruct (recv_split_spec _ _ _ _ _ Hpos Hc Ht Er) as (Hcat & Hd & Hcs' & Hlt & _).
      specialize (IH (b ++ d) cs' Hcs' ltac:(lia)).
      rewrite <- app_assoc, Hcat in IH. simpl concat. exact IH.
Qed.

Lemma rb_loop_spec : forall fuel size acc cs,
    Forall nonempty cs -> (total_len cs < fuel)%nat ->
    if size <=? blen (concat cs)
    then exists cs', rb_loop fuel size acc cs = RBok (acc ++ firstn (N.to_nat size) (concat cs)) cs'
                     /\ concat cs' = skipn (N.to_nat size) (concat cs) /\ Forall nonempty cs'
    else rb_loop fuel size acc cs = RBtimeout.
Proof.
  induction fuel as [|f IH]; intros size acc cs Hne Hfuel; [lia|].
  cbn [rb_loop].
  destruct (size =? 0) eqn:E0.
  - apply N.eqb_eq in E0. subst size. rewrite (proj2 (N.leb_le 0 _) (N.le_0_l _)).
    exists cs. cbn. rewrite app_nil_r. auto.
  - apply N.eqb_neq in E0.
    destruct cs as [|c t]; [destruct size; [congruence | exact eq_refl]|].
    inversion Hne as [|? ? Hc Ht]; subst.
    destruct c as [|c0 c']; [contradiction Hc; reflexivity|].
    destruct (recv_split size (c0 :: c') t) as [d cs'] eqn:Er.
    assert (Hpos : 0 < size) by lia.
    destruct (recv_split_spec _ _ _ _ _ Hpos Hc Ht Er) as (Hcat & Hd & Hcs' & Hlt & Hle).
    specialize (IH (size - blen d) (acc ++ d) cs' Hcs' ltac:(lia)).
    (* the octets of d are the first blen d <= size octets of what is pending *)
    change (concat ((c0 :: c') :: t)) with ((c0 :: c') ++ concat t). rewrite <- Hcat.
    rewrite blen_app, leb_sub_min, firstn_app_min, skipn_app_min, N.min_r by exact Hle.
    rewrite firstn_blen, skipn_blen, app_assoc.
    destruct (size - blen d <=? blen (concat cs')); exact IH.
Qed.

Section Refinement.
  Variable S : Type.
  Variable react : S -> bytes -> S * bytes.
  Variable on_connect : S -> option (S * bytes).
  Variable on_tls : S -> option (S * bytes).
  Variable seg : nat -> bytes -> list bytes.

  Definition valid_seg : Prop :=
    forall n b, concat (seg n b) = b /\ Forall nonempty (seg n b).

  Hypothesis Hseg : valid_seg.

  Notation interp := (interp S react on_connect on_tls seg).
  Notation interp_s := (interp_s S react on_connect on_tls).
  Notation world := (world S).
  Notation abs := (abs S).

  Definition is_timeout (o : outcome) : bool :=
    match o with OFail ExTimeout _ => true | _ => false end.

  (* sw is a variable so that the induction hypothesis applies as it stands and abs of the next world is a side goal.
     Timeouts are exempt: __read_block has consumed what it received while the stream semantics has not touched the
     stream.  An empty chunk models recv() = b"", so under Forall nonempty RLclosed / RBclosed do not occur:
     "connection closed" is outside this theorem. *)
  Definition refines (p : prog) : Prop :=
    forall (w : world) sw, Forall nonempty (w_chunks S w) -> abs w = sw ->
      fst (interp p w) = fst (interp_s p sw)
      /\ (is_timeout (fst (interp p w)) = false ->
          abs (snd (interp p w)) = snd (interp_s p sw)
          /\ Forall nonempty (w_chunks S (snd (interp p w)))).

  Lemma refines_all : forall p, refines p.
  Proof.
    induction p as [v st|e st|st k IH|st n k IH|data k IH|st k IH|st k IH|g k IH]; intros w sw Hne <-;
      cbn [Transport.interp Transport.interp_s].
    - auto.
    - auto.
    - pose proof (rl_spec (Datatypes.S (total_len (w_chunks S w))) (w_buf S w) (w_chunks S w) Hne ltac:(lia)) as Hrl.
      change (s_stream S (abs w)) with (w_buf S w ++ concat (w_chunks S w)).
      destruct (split_crlf (w_buf S w ++ concat (w_chunks S w))) as [[line rest]|].
      + destruct Hrl as (r & cs' & -> & <- & Hne'). exact (IH line (w_set_io S r cs' w) _ Hne' eq_refl).
      + rewrite Hrl. split; [reflexivity | discriminate].
    - (* what the buffer holds of the n octets, then the loop over the chunks *)
      set (limit := N.min n (blen (w_buf S w))).
      pose proof (rb_loop_spec (Datatypes.S (total_len (w_chunks S w))) (n - limit)
                               (firstn (N.to_nat limit) (w_buf S w)) (w_chunks S w) Hne ltac:(lia)) as Hrb.
      change (s_stream S (abs w)) with (w_buf S w ++ concat (w_chunks S w)).
      rewrite blen_app, leb_sub_min, firstn_app_min, skipn_app_min. fold limit.
      destruct (n - limit <=? blen (concat (w_chunks S w))).
      + destruct Hrb as (cs' & -> & <- & Hne').
        exact (IH _ (w_set_io S (skipn (N.to_nat limit) (w_buf S w)) cs' w) _ Hne' eq_refl).
      + rewrite Hrb. split; [reflexivity | discriminate].
    - change (s_peer S (abs w)) with (w_peer S w).
      destruct (react (w_peer S w) data) as [s' reply]. destruct (Hseg (w_n S w) reply) as [Hcat Hne'].
      apply IH; [apply Forall_app; auto|].
      unfold Transport.abs. cbn. rewrite concat_app, Hcat, app_assoc. reflexivity.
    - change (s_peer S (abs w)) with (w_peer S w).
      destruct (on_connect (w_peer S w)) as [[s' greeting]|]; [|cbn; auto].
      destruct (Hseg (w_n S w) greeting) as [Hcat Hne'].
      apply IH; [exact Hne'|]. unfold Transport.abs. cbn. rewrite Hcat. reflexivity.
    - change (s_peer S (abs w)) with (w_peer S w).
      destruct (on_tls (w_peer S w)) as [[s' after]|]; [|cbn; auto].
      destruct (Hseg (w_n S w) after) as [Hcat Hne'].
      apply IH; [exact Hne'|]. unfold Transport.abs. cbn. rewrite Hcat. reflexivity.
    - apply IH; [exact Hne | reflexivity].
  Qed.

  Theorem interp_refines_stream : forall (p : prog) (w : world),
      Forall nonempty (w_chunks S w) ->
      fst (interp p w) = fst (interp_s p (abs w))
      /\ (is_timeout (fst (interp p w)) = false ->
          abs (snd (interp p w)) = snd (interp_s p (abs w))
          /\ Forall nonempty (w_chunks S (snd (interp p w)))).
  Proof. intros p w Hne. exact (refines_all p w _ Hne eq_refl). Qed.

  (* The outcomes of the two semantics agree call by call, so a timeout shows on both sides or on neither;
     as long as none occurs, a session on the socket is the session on the stream. *)
  Theorem run_ops_refines : forall fuel ops st (w : world),
    Forall nonempty (w_chunks S w) ->
    forallb (fun o => negb (is_timeout o)) (fst (fst (run_ops S react on_connect on_tls seg fuel ops st w))) = true
    \/ forallb (fun o => negb (is_timeout o)) (fst (fst (run_ops_s S react on_connect on_tls fuel ops st (abs w)))) = true ->
    fst (run_ops S react on_connect on_tls seg fuel ops st w) = fst (run_ops_s S react on_connect on_tls fuel ops st (abs w))
    /\ abs (snd (run_ops S react on_connect on_tls seg fuel ops st w))
       = snd (run_ops_s S react on_connect on_tls fuel ops st (abs w)).
  Proof.
    intros fuel ops. induction ops as [|o t IH]; intros st w Hne Hall; cbn [run_ops run_ops_s] in *; [auto|].
    destruct (interp_refines_stream (run_op fuel o st) w Hne) as [A B].
    destruct (interp (run_op fuel o st) w) as [r w'], (interp_s (run_op fuel o st) (abs w)) as [r' sw'].
    cbn [fst snd] in A, B. subst r'. specialize (IH (outcome_state r) w').
    destruct (run_ops S react on_connect on_tls seg fuel t (outcome_state r) w') as [[rs st1] w1].
    destruct (run_ops_s S react on_connect on_tls fuel t (outcome_state r) sw') as [[rs' st'] ws'] eqn:R.
    cbn [fst snd forallb] in *.
    assert (Hr : is_timeout r = false) by (destruct Hall as [H|H]; apply andb_prop in H; apply negb_true_iff, H).
    destruct (B Hr) as [<- Hne']. rewrite R in IH. cbn [fst snd] in IH.
    destruct IH as [E1 E2]; [exact Hne' | destruct Hall as [H|H]; apply andb_prop in H; [left | right]; apply H|].
    inversion E1; subst. auto.
  Qed.
End Refinement.

Theorem segmentation_independent :
  forall (S : Type) (react : S -> bytes -> S * bytes) (on_connect on_tls : S -> option (S * bytes))
         (seg1 seg2 : nat -> bytes -> list bytes) (p : prog) (w1 w2 : world S),
    valid_seg seg1 -> valid_seg seg2 ->
    Forall nonempty (w_chunks S w1) -> Forall nonempty (w_chunks S w2) ->
    abs S w1 = abs S w2 ->
    fst (interp S react on_connect on_tls seg1 p w1) = fst (interp S react on_connect on_tls seg2 p w2)
    /\ (is_timeout (fst (interp S react on_connect on_tls seg1 p w1)) = false ->
        abs S (snd (interp S react on_connect on_tls seg1 p w1))
        = abs S (snd (interp S react on_connect on_tls seg2 p w2))).
Proof.
  intros S react oc ot seg1 seg2 p w1 w2 Hs1 Hs2 Hn1 Hn2 Habs.
  destruct (interp_refines_stream S react oc ot seg1 Hs1 p w1 Hn1) as [A1 B1].
  destruct (interp_refines_stream S react oc ot seg2 Hs2 p w2 Hn2) as [A2 B2].
  rewrite Habs in A1, B1.
  split; [congruence|].
  intro Ht. destruct (B1 Ht) as [C1 _].
  rewrite A1, <- A2 in Ht. destruct (B2 Ht) as [C2 _]. congruence.
Qed.

Theorem sessions_independent :
  forall (S : Type) (react : S -> bytes -> S * bytes) (on_connect on_tls : S -> option (S * bytes))
         (seg1 seg2 : nat -> bytes -> list bytes) (fuel : nat) (ops : list op) (st : cstate)
         (w1 w2 : world S),
    valid_seg seg1 -> valid_seg seg2 ->
    Forall nonempty (w_chunks S w1) -> Forall nonempty (w_chunks S w2) ->
    abs S w1 = abs S w2 ->
    forallb (fun o => negb (is_timeout o))
            (fst (fst (run_ops S react on_connect on_tls seg1 fuel ops st w1))) = true ->
    fst (fst (run_ops S react on_connect on_tls seg1 fuel ops st w1))
    = fst (fst (run_ops S react on_connect on_tls seg2 fuel ops st w2)).
Proof.
  intros S react oc ot seg1 seg2 fuel ops st w1 w2 Hs1 Hs2 Hn1 Hn2 Habs Hall.
  destruct (run_ops_refines S react oc ot seg1 Hs1 fuel ops st w1 Hn1 (or_introl Hall)) as [E1 _].
  destruct (run_ops_refines S react oc ot seg2 Hs2 fuel ops st w2 Hn2) as [E2 _].
  { right. rewrite <- Habs, <- E1. exact Hall. }
  rewrite E1, E2, Habs. reflexivity.
Qed.

Theorem literal_exact :
  forall (S : Type) (react : S -> bytes -> S * bytes) (on_connect on_tls : S -> option (S * bytes))
         (seg : nat -> bytes -> list bytes) (st : cstate) (n : N) (k : bytes -> prog) (w : world S),
    valid_seg seg -> Forall nonempty (w_chunks S w) ->
    n <= blen (w_buf S w ++ concat (w_chunks S w)) ->
    fst (interp S react on_connect on_tls seg (RdBlock st n k) w)
    = fst (interp_s S react on_connect on_tls
                    (k (firstn (N.to_nat n) (w_buf S w ++ concat (w_chunks S w))))
                    (s_set S (skipn (N.to_nat n) (w_buf S w ++ concat (w_chunks S w))) (abs S w))).
Proof.
  intros S react oc ot seg st n k w Hs Hn Hle.
  destruct (interp_refines_stream S react oc ot seg Hs (RdBlock st n k) w Hn) as [A _].
  rewrite A. cbn [interp_s].
  change (s_stream S (abs S w)) with (w_buf S w ++ concat (w_chunks S w)).
  apply N.leb_le in Hle. rewrite Hle. reflexivity.
Qed.
