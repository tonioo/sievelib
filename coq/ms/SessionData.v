(* SessionData.v — property C15 / C17: the data-bearing operations LISTSCRIPTS and GETSCRIPT against the
   reference server, end to end (client writes the command, the server parses, executes and renders the data
   with any choice of encodings, the client assembles and decodes it):
     - listscripts returns exactly the names of the store, the active one separately;
     - getscript returns exactly the lines of the stored script;
   the server receives exactly one well-formed command, its state does not change, and both sides stay in step. *)
From Coq Require Import String.
From Coq Require Import List NArith Bool Arith Lia.
From SV Require Import Bytes Base64 Client Transport Server Session WriterFacts StatusFacts DecodeFacts DataFacts SessionFacts.
From SV Require RenameFacts.
Import ListNotations.
Local Open Scope nat_scope.


Definition listing_entries (store : list (bytes * bytes)) (active : option bytes) : list (bytes * bool) :=
  map (fun nc => (fst nc, opt_beq (Some (fst nc)) active)) store.

Lemma listing_bytes_stream : forall store active s,
  exists encs, length encs = length store /\
    fst (listing_bytes store active s) = listing_stream (combine (listing_entries store active) encs).
Proof.
  induction store as [|[name content] t IH]; intros active s.
  - exists []. split; reflexivity.
  - cbn [listing_bytes]. destruct (pick s) as [c s1].
    destruct (IH active s1) as (encs & Hl & E). destruct (listing_bytes t active s1) as [rest s2].
    cbn [fst] in *. subst rest. exists (enc_of c :: encs). split; [cbn [length]; lia|].
    cbn [listing_entries map combine listing_stream fst]. unfold entry_bytes. cbn [fst snd].
    rewrite <- !app_assoc. reflexivity.
Qed.

Lemma render_listing : forall s, exists encs c,
  length encs = length (s_store s) /\
  fst (render_answer AnsListing s) =
  listing_stream (combine (listing_entries (s_store s) (s_active s)) encs)
  ++ render_reply (mk_reply StOK None (bs "listscripts completed") c).
Proof.
  intro s. destruct (listing_bytes_stream (s_store s) (s_active s) s) as (encs & Hl & E).
  cbn [render_answer]. destruct (listing_bytes (s_store s) (s_active s) s) as [l s1]. cbn [fst] in E. subst l.
  rewrite reply_bytes_eq. exists encs, (fst (pick s1)). split; [exact Hl|reflexivity].
Qed.

(* [eol]: the reference server may omit the line end after a literal that ends with CRLF *)
Lemma render_script : forall content s, exists enc eol c,
  (eol = CRLF \/ (eol = [] /\ sent_quoted enc content = false /\ ends_with CRLF content = true)) /\
  fst (render_answer (AnsScript content) s) =
  render_string enc content ++ eol ++ render_reply (mk_reply StOK None (bs "getscript completed") c).
Proof.
  intros content s. cbn [render_answer]. destruct (pick s) as [ch s1]. rewrite reply_bytes_eq. cbn [fst].
  eexists (enc_of ch), _, _. split; [|reflexivity].
  destruct (cfg_eol_after_literal (s_cfg s)); [left; reflexivity|].
  unfold sent_quoted. destruct (enc_of ch).
  - destruct (quotable content); cbn [negb andb]; [left; reflexivity|].
    destruct (ends_with CRLF content); [right; auto|left; reflexivity].
  - cbn [andb]. destruct (ends_with CRLF content); [right; auto|left; reflexivity].
Qed.

Definition data_verbs : list bytes := [bs "LISTSCRIPTS"; bs "GETSCRIPT"].

Lemma srv_react_data : forall verb args s a s2 out s3,
  In verb data_verbs -> conforming s ->
  srv_step verb (map decode_arg args) s = Some (a, s2) ->
  render_answer a s2 = (out, s3) -> s_in s3 = s_in s2 ->
  srv_react s (command_bytes verb args) = (s3, out).
Proof.
  intros verb args s a s2 out s3 Hv Hc Hstep Hrb _. destruct (conforming_live s Hc) as (Hl & Hf).
  assert (Hv' : In verb script_verbs) by (revert Hv; unfold data_verbs, script_verbs; cbn [In]; tauto).
  rewrite (srv_react_script verb args s a s2 Hv' Hl Hf Hstep), Hrb. reflexivity.
Qed.

Definition listscripts_k (k : kont) : cstate -> option bytes -> option bytes -> bytes -> prog :=
  fun st code _ listing =>
    if is_no code then k st VNone
    else let '(a, o) := parse_listing (splitlines listing) None [] in k st (VListing a o).

Definition getscript_k (k : kont) : cstate -> option bytes -> option bytes -> bytes -> prog :=
  fun st code _ content =>
    if is_ok code then
      match scan_quoted content with
      | None => k st VNone
      | Some (body, _) => k st (VBytes (join [10%N] (splitlines (unescape_q body))))
      end
    else k st VNone.

Lemma listscripts_eq : forall F st k, c_auth st = true ->
  listscripts F st k = send_command F (bs "LISTSCRIPTS") [] [] None true st (listscripts_k k).
Proof. intros F st k Ha. unfold listscripts, auth_required. rewrite Ha. reflexivity. Qed.

Lemma getscript_eq : forall F name st k, c_auth st = true ->
  getscript F name st k = send_command F (bs "GETSCRIPT") [AStr name] [] None true st (getscript_k k).
Proof. intros F name st k Ha. unfold getscript, auth_required. rewrite Ha. reflexivity. Qed.

Definition names_ok (s : sstate) : Prop := Forall (fun nc => name_ok (fst nc)) (s_store s).

Lemma map_fst_combine : forall (A B : Type) (l : list A) (m : list B), length m = length l -> map fst (combine l m) = l.
Proof.
  induction l as [|a l IH]; intros [|b m] H; cbn in *; try discriminate; [reflexivity|]. rewrite IH by lia. reflexivity.
Qed.

Lemma names_ok_entries : forall s, names_ok s ->
  Forall (fun e : bytes * bool => name_ok (fst e)) (listing_entries (s_store s) (s_active s)).
Proof. intros s H. unfold listing_entries. apply Forall_map. exact H. Qed.

(* fuel: one round of __read_response for each entry of the listing and one for the status line *)
Theorem listscripts_run : forall F st (w : sworld sstate) (k : kont),
  c_auth st = true -> s_stream sstate w = [] -> live (s_peer sstate w) -> fault_now (s_peer sstate w) = FNone ->
  names_ok (s_peer sstate w) -> length (s_store (s_peer sstate w)) < F ->
  let s := s_peer sstate w in
  let es := listing_entries (s_store s) (s_active s) in
  let s3 := snd (render_answer AnsListing (booked (bs "LISTSCRIPTS") [] s)) in
  runS (listscripts F st k) w =
  runS (k st (VListing (last_active es) (map fst (filter (fun e => negb (snd e)) es))))
       (after_send (bs "LISTSCRIPTS") [] s3 [] w) /\
  stepped s s s3.
Proof.
  intros F st w k Ha Hs Hl Hf Hn HF. cbv zeta. set (s := s_peer sstate w) in *.
  set (es := listing_entries (s_store s) (s_active s)).
  split; [|exact (script_stepped (bs "LISTSCRIPTS") [] s _ _ Hl eq_refl)].
  assert (Hv : In (bs "LISTSCRIPTS") script_verbs) by (unfold script_verbs; cbn [In]; tauto).
  rewrite (listscripts_eq F st k Ha).
  rewrite (send_script_command F _ [] None true st _ w AnsListing (booked (bs "LISTSCRIPTS") [] s) Hv Hs Hl Hf eq_refl).
  destruct (render_listing (booked (bs "LISTSCRIPTS") [] s)) as (encs & c & Hlen & E). rewrite E.
  change (s_store (booked (bs "LISTSCRIPTS") [] s)) with (s_store s) in *.
  change (s_active (booked (bs "LISTSCRIPTS") [] s)) with (s_active s). fold es.
  set (r := mk_reply StOK None (bs "listscripts completed") c).
  pose proof (names_ok_entries s Hn) as Hes. fold es in Hes.
  assert (Hall : Forall (fun x : (bytes * bool) * enc => name_ok (fst (fst x))) (combine es encs)).
  { apply Forall_forall. intros [e e0] Hi. apply in_combine_l in Hi. exact (proj1 (Forall_forall _ _) Hes e Hi). }
  assert (Hle : length es = length (s_store s)) by (unfold es, listing_entries; apply map_length).
  assert (Hlc : length (combine es encs) = length (s_store s)) by (rewrite combine_length; lia).
  replace F with (S (length (combine es encs) + (F - S (length (s_store s))))) by lia.
  rewrite (read_response_listing sstate srv_react srv_connect srv_tls (combine es encs) r _ [] 0 st _ _ []
             Hall (reply_ok_mk StOK None _ _ I))
    by (cbn [s_stream after_send]; rewrite app_nil_r; reflexivity).
  cbn [r r_status mk_reply app]. unfold listscripts_k. change (is_no (Some (bs "OK"))) with false. cbv iota.
  rewrite map_fst_combine by lia. rewrite (listscripts_decode es Hes). reflexivity.
Qed.

Lemma srv_step_get : forall name s,
  srv_step (bs "GETSCRIPT") [PStr name] s =
  Some (match assoc_get name (s_store s) with
        | Some c => AnsScript c
        | None => AnsNO (Some (bs "NONEXISTENT"))
        end, booked (bs "GETSCRIPT") [PStr name] s).
Proof.
  intros name s. unfold srv_step. rewrite RenameFacts.exec_get.
  change (s_store (booked (bs "GETSCRIPT") [PStr name] s)) with (s_store s).
  destruct (assoc_get name (s_store s)); reflexivity.
Qed.

Lemma get_script_verb : In (bs "GETSCRIPT") script_verbs.
Proof. unfold script_verbs. cbn [In]. tauto. Qed.

(* fuel 3: the script, an empty line the server may send after it, the status line (DataFacts.read_response_script) *)
Theorem getscript_run : forall F name content st (w : sworld sstate) (k : kont),
  c_auth st = true -> s_stream sstate w = [] -> live (s_peer sstate w) -> fault_now (s_peer sstate w) = FNone ->
  assoc_get name (s_store (s_peer sstate w)) = Some content -> 3 <= F ->
  let s := s_peer sstate w in
  let s3 := snd (render_answer (AnsScript content) (booked (bs "GETSCRIPT") [PStr name] s)) in
  runS (getscript F name st k) w =
  runS (k st (VBytes (join [10%N] (splitlines content)))) (after_send (bs "GETSCRIPT") [AStr name] s3 [] w) /\
  stepped s s s3.
Proof.
  intros F name content st w k Ha Hs Hl Hf Hget HF. cbv zeta. set (s := s_peer sstate w) in *.
  pose proof (srv_step_get name s) as Hstep. rewrite Hget in Hstep.
  split; [|exact (script_stepped _ _ s _ _ Hl Hstep)].
  rewrite (getscript_eq F name st k Ha).
  rewrite (send_script_command F _ [AStr name] None true st _ w _ _ get_script_verb Hs Hl Hf Hstep).
  destruct (render_script content (booked (bs "GETSCRIPT") [PStr name] s)) as (enc & eol & c & Heol & E). rewrite E.
  set (r := mk_reply StOK None (bs "getscript completed") c).
  replace F with (S (S (S (F - 3)))) by lia.
  destruct (read_response_script sstate srv_react srv_connect srv_tls content enc eol r (F - 3) st (getscript_k k)
              (after_send (bs "GETSCRIPT") [AStr name]
                 (snd (render_answer (AnsScript content) (booked (bs "GETSCRIPT") [PStr name] s)))
                 (render_string enc content ++ eol ++ render_reply r) w)
              [] (reply_ok_mk StOK None _ _ I) Heol) as (tail & RR).
  { cbn [s_stream after_send]. rewrite app_nil_r. reflexivity. }
  rewrite RR. cbn [r r_status mk_reply]. unfold getscript_k. change (is_ok (Some (bs "OK"))) with true. cbv iota.
  rewrite getscript_decode, unescape_escape. reflexivity.
Qed.

(* GETSCRIPT of a script that does not exist: NO NONEXISTENT, the call returns None *)
Theorem getscript_missing_k_gen : forall f name st (w : sworld sstate) (k : kont),
  c_auth st = true -> s_stream sstate w = [] -> live (s_peer sstate w) -> fault_now (s_peer sstate w) = FNone ->
  assoc_get name (s_store (s_peer sstate w)) = None ->
  let s := s_peer sstate w in
  exists c s3,
    runS (getscript (S f) name st k) w =
    runS (k (set_err (bs "NONEXISTENT") (if ((c / 2) mod 4 =? 0)%N then [] else bs "refused") st) VNone)
     (mkSW sstate s3 [] (S (s_n sstate w)) (s_conn sstate w) (Transport.s_tls sstate w)
          (WSend (s_conn sstate w) (Transport.s_tls sstate w) (command_bytes (bs "GETSCRIPT") [AStr name]) :: s_log sstate w)) /\
    live s3 /\ s_faults s3 = s_faults s /\ s_count s3 = S (s_count s) /\
    s_store s3 = s_store s /\ s_active s3 = s_active s /\ s_cfg s3 = s_cfg s.
Proof.
  intros f name st w k Ha Hs Hl Hf Hget s.
  pose proof (srv_step_get name (s_peer sstate w)) as Hstep. rewrite Hget in Hstep.
  destruct (send_simple_answer f (bs "GETSCRIPT") [AStr name] None true st (getscript_k k)
              w _ _ get_script_verb Hs Hl Hf Hstep (code_ok_known _ ltac:(cbn [In]; tauto))) as (R & Hst).
  eexists _, _. split; [|exact Hst].
  rewrite (getscript_eq (S f) name st k Ha). exact R.
Qed.

(* LOGOUT looks at no data: a live server with no fault planned answers OK; the call returns None *)
Theorem logout_k_gen : forall f st (w : sworld sstate) (k : kont),
  s_stream sstate w = [] -> live (s_peer sstate w) -> fault_now (s_peer sstate w) = FNone ->
  let s := s_peer sstate w in
  exists s3,
    runS (logout (S f) st k) w =
    runS (k st VNone)
     (mkSW sstate s3 [] (S (s_n sstate w)) (s_conn sstate w) (Transport.s_tls sstate w)
          (WSend (s_conn sstate w) (Transport.s_tls sstate w) (command_bytes (bs "LOGOUT") []) :: s_log sstate w)) /\
    live s3 /\ s_faults s3 = s_faults s /\ s_count s3 = S (s_count s) /\
    s_store s3 = s_store s /\ s_active s3 = s_active s /\ s_cfg s3 = s_cfg s.
Proof.
  intros f st w k Hs Hl Hf. cbv zeta. set (s := s_peer sstate w) in *.
  set (s2 := booked (bs "LOGOUT") [] s).
  pose proof (stepped_booked (bs "LOGOUT") [] s _ Hl (pick_sbc s2)) as Hst.
  exists (snd (pick s2)). split; [|exact Hst].
  assert (Hr : srv_react s (command_bytes (bs "LOGOUT") []) =
               (snd (pick s2), render_reply (mk_reply StOK None (bs "bye") (fst (pick s2))))).
  { apply (srv_react_one (bs "LOGOUT") [] s _ _ ltac:(discriminate) ltac:(repeat constructor) (proj1 Hl));
      [|apply Hst].
    rewrite <- reply_bytes_eq. exact (handle_logout [] s Hf). }
  unfold logout.
  rewrite (send_command_replied f (bs "LOGOUT") [] None false st _ w _ _ Hs Hr (reply_ok_mk StOK None _ _ I)).
  reflexivity.
Qed.

Theorem listscripts_against_server : forall f st (w : sworld sstate),
  c_auth st = true -> s_stream sstate w = [] -> conforming (s_peer sstate w) -> names_ok (s_peer sstate w) ->
  let s := s_peer sstate w in
  let es := listing_entries (s_store s) (s_active s) in
  exists s3,
    runS (listscripts (S (length (s_store s) + f)) st finish) w =
    (ODone (VListing (last_active es) (map fst (filter (fun e => negb (snd e)) es))) st,
     mkSW sstate s3 [] (S (s_n sstate w)) (s_conn sstate w) (Transport.s_tls sstate w)
          (WSend (s_conn sstate w) (Transport.s_tls sstate w) (command_bytes (bs "LISTSCRIPTS") []) :: s_log sstate w)) /\
    conforming s3 /\ s_store s3 = s_store s /\ s_active s3 = s_active s /\ s_cfg s3 = s_cfg s /\
    s3 = snd (render_answer AnsListing (booked (bs "LISTSCRIPTS") [] s)).
Proof.
  intros f st w Ha Hs Hc Hn s es. destruct (conforming_live _ Hc) as (Hl & Hf).
  destruct (listscripts_run (S (length (s_store s) + f)) st w finish Ha Hs Hl Hf Hn ltac:(unfold s; lia)) as (R & Hst).
  eexists. split; [exact R|]. split; [exact (stepped_conforming _ _ _ Hc Hst)|].
  repeat (split; [apply Hst|]). reflexivity.
Qed.

Theorem getscript_against_server : forall f name content st (w : sworld sstate),
  c_auth st = true -> s_stream sstate w = [] -> conforming (s_peer sstate w) ->
  assoc_get name (s_store (s_peer sstate w)) = Some content ->
  let s := s_peer sstate w in
  exists s3,
    runS (getscript (S (S (S f))) name st finish) w =
    (ODone (VBytes (join [10%N] (splitlines content))) st,
     mkSW sstate s3 [] (S (s_n sstate w)) (s_conn sstate w) (Transport.s_tls sstate w)
          (WSend (s_conn sstate w) (Transport.s_tls sstate w) (command_bytes (bs "GETSCRIPT") [AStr name]) :: s_log sstate w)) /\
    conforming s3 /\ s_store s3 = s_store s /\ s_active s3 = s_active s /\ s_cfg s3 = s_cfg s /\
    s3 = snd (render_answer (AnsScript content) (booked (bs "GETSCRIPT") [PStr name] s)).
Proof.
  intros f name content st w Ha Hs Hc Hg s. destruct (conforming_live _ Hc) as (Hl & Hf).
  destruct (getscript_run (S (S (S f))) name content st w finish Ha Hs Hl Hf Hg ltac:(lia)) as (R & Hst).
  eexists. split; [exact R|]. split; [exact (stepped_conforming _ _ _ Hc Hst)|].
  repeat (split; [apply Hst|]). reflexivity.
Qed.

Inductive abs_step (F : nat) : op -> sstate -> cstate -> outcome -> sstate -> Prop :=
| as_simple : forall o verb args s st a s2 c s3,
    op_command o = Some (verb, args) ->
    (needs_version o = true -> has_cap (bs "VERSION") st = true) ->
    srv_step verb (map decode_arg args) s = Some (a, s2) -> pick s2 = (c, s3) -> 1 <= F ->
    abs_step F o s st (answer_outcome a c st) s3
| as_list : forall s st,
    names_ok s -> length (s_store s) < F ->
    abs_step F OListscripts s st
      (ODone (VListing (last_active (listing_entries (s_store s) (s_active s)))
                       (map fst (filter (fun e => negb (snd e)) (listing_entries (s_store s) (s_active s))))) st)
      (snd (render_answer AnsListing (booked (bs "LISTSCRIPTS") [] s)))
| as_get : forall s st name content,
    assoc_get name (s_store s) = Some content -> 3 <= F ->
    abs_step F (OGetscript name) s st (ODone (VBytes (join [10%N] (splitlines content))) st)
      (snd (render_answer (AnsScript content) (booked (bs "GETSCRIPT") [PStr name] s))).

Inductive abs_run (F : nat) : list op -> sstate -> cstate -> list outcome -> cstate -> sstate -> Prop :=
| ar_nil : forall s st, abs_run F [] s st [] st s
| ar_cons : forall o t s st r s1 rs st' s',
    abs_step F o s st r s1 -> abs_run F t s1 (outcome_state r) rs st' s' ->
    abs_run F (o :: t) s st (r :: rs) st' s'.

Lemma abs_step_runs : forall F o st (w : sworld sstate) r s1,
  c_auth st = true -> s_stream sstate w = [] -> conforming (s_peer sstate w) ->
  abs_step F o (s_peer sstate w) st r s1 ->
  exists w1, runS (run_op F o st) w = (r, w1) /\ s_peer sstate w1 = s1 /\ s_stream sstate w1 = [] /\
             conforming s1 /\ c_auth (outcome_state r) = true.
Proof.
  intros F o st w r s1 Ha Hs Hc Hstep. destruct (conforming_live _ Hc) as (Hl & Hf).
  inversion Hstep as [o1 verb args s00 st00 a s2 c s3 Eo Hv Es Hp HF1|s00 st00 Hn Hlen|s00 st00 name content Hget HF]; subst.
  - pose proof (op_command_verb _ _ _ Eo) as Hverb.
    destruct (simple_cmd_run F verb args st w a s2 finish Hverb Hs Hl Hf Es HF1) as (R & Hst).
    rewrite Hp in R, Hst. cbn [fst snd] in R, Hst.
    eexists. split; [rewrite (run_op_simple F o st verb args Eo Ha Hv), R; cbn [interp_s finish];
                     rewrite <- (answer_outcome_eq a c st (exec_simple_answer _ _ _ _ _ Hverb Es)); reflexivity|].
    split; [reflexivity|]. split; [reflexivity|]. split; [exact (stepped_conforming _ _ _ Hc Hst)|].
    rewrite (proj1 (answer_outcome_state a c st)). exact Ha.
  - destruct (listscripts_run F st w finish Ha Hs Hl Hf Hn Hlen) as (R & Hst).
    eexists. split; [exact R|]. split; [reflexivity|]. split; [reflexivity|].
    split; [exact (stepped_conforming _ _ _ Hc Hst)|exact Ha].
  - destruct (getscript_run F name content st w finish Ha Hs Hl Hf Hget HF) as (R & Hst).
    eexists. split; [exact R|]. split; [reflexivity|]. split; [reflexivity|].
    split; [exact (stepped_conforming _ _ _ Hc Hst)|exact Ha].
Qed.

(* C15: every session of these operations -- HAVESPACE, PUTSCRIPT, CHECKSCRIPT, DELETESCRIPT, SETACTIVE, native
   RENAMESCRIPT, LISTSCRIPTS, GETSCRIPT of an existing script -- of any length, against the reference server with
   any sequence of encoding choices: the client's results are the abstract answers, the server ends in the
   abstract state, nothing is left in either buffer *)
Theorem session_with_data : forall F ops st (w : sworld sstate) outs st' s',
  c_auth st = true -> s_stream sstate w = [] -> conforming (s_peer sstate w) ->
  abs_run F ops (s_peer sstate w) st outs st' s' ->
  exists w',
    run_ops_s sstate srv_react srv_connect srv_tls F ops st w = (outs, st', w') /\
    s_peer sstate w' = s' /\ s_stream sstate w' = [] /\ conforming s'.
Proof.
  intros F ops. induction ops as [|o t IH]; intros st w outs st' s' Ha Hs Hc Hrun.
  - inversion Hrun; subst. exists w. cbn. auto.
  - inversion Hrun as [|o0 t0 s0 st0 r s1 rs st1 s1' Hstep Hrest]; subst.
    destruct (abs_step_runs F o st w r s1 Ha Hs Hc Hstep) as (w1 & R1 & P1 & S1 & C1 & A1).
    destruct (IH (outcome_state r) w1 rs st' s' A1 S1 ltac:(rewrite P1; exact C1) ltac:(rewrite P1; exact Hrest)) as (w' & Rr & Pw & Sw & Cw).
    exists w'. cbn [run_ops_s]. rewrite R1, Rr. auto.
Qed.

(* non-vacuity: a concrete session with listings and a fetch, against the concrete server of SessionFacts *)
Definition ex_st0 : cstate := mkC true None [] [(bs "VERSION", Some (bs "1.0"))].

Example session_data_example :
  exists outs st' s',
    abs_run 10 [OPutscript (bs "b") (bs "stop;"); OListscripts; OGetscript (bs "b"); OSetactive (bs "b"); OListscripts]
            demo_server ex_st0 outs st' s' /\
    map (fun o => match o with ODone v _ => Some v | _ => None end) outs =
    [Some (VBool true); Some (VListing (Some (bs "a")) [bs "b"]); Some (VBytes (bs "stop;"));
     Some (VBool true); Some (VListing (Some (bs "b")) [bs "a"])].
Proof.
  eexists. eexists. eexists. split.
  - eapply ar_cons.
    { eapply as_simple; [reflexivity|discriminate|vm_compute; reflexivity|vm_compute; reflexivity|lia]. }
    eapply ar_cons.
    { eapply as_list; [repeat constructor; vm_compute; auto|vm_compute; lia]. }
    eapply ar_cons.
    { eapply as_get; [vm_compute; reflexivity|lia]. }
    eapply ar_cons.
    { eapply as_simple; [reflexivity|discriminate|vm_compute; reflexivity|vm_compute; reflexivity|lia]. }
    eapply ar_cons.
    { eapply as_list; [repeat constructor; vm_compute; auto|vm_compute; lia]. }
    apply ar_nil.
  - vm_compute. reflexivity.
Qed.

Print Assumptions listscripts_against_server.
Print Assumptions getscript_against_server.
Print Assumptions session_with_data.
