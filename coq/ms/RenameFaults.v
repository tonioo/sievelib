(* C14 about the bytes, under every fault plan.

   The reference server carries a list of planned faults (command index -> NO / BYE / no reply).  RenameData.v
   follows Client.renamescript without VERSION through any such list; here the plan is read off the server, and
   with RenameFacts (nothing lost, nothing overwritten, success means renamed, for every plan) the statement of
   C14 is carried from the abstract rename to the bytes: True / False as values, Error (BYE or a timeout) where
   the abstract rename says Error. *)
From Coq Require Import String.
From Coq Require Import List NArith Bool Arith Lia.
From SV Require Import Bytes Base64 Client Transport Server Session WriterFacts StatusFacts DecodeFacts DataFacts
  SessionFacts SessionData FaultFacts RenameAbs RenameFacts RenameData.
Import ListNotations.
Local Open Scope nat_scope.

Definition keeps (st st' : cstate) : Prop := c_auth st' = c_auth st /\ c_caps st' = c_caps st.

Lemma keeps_refl : forall st, keeps st st.
Proof. intro st. split; reflexivity. Qed.

Definition err_ok (e : exn) : Prop := e = ExBye \/ e = ExTimeout.

Definition result_is (out : outcome) (r : aresult) : Prop :=
  match r with
  | RTrue => exists st', out = ODone (VBool true) st'
  | RFalse => exists st', out = ODone (VBool false) st'
  | RError => exists e st', out = OFail e st' /\ err_ok e
  end.

Lemma result_is_true : forall st' r, result_is (ODone (VBool true) st') r -> r = RTrue.
Proof.
  intros st' [] H; cbn [result_is] in H; [reflexivity| |].
  - destruct H as (st'' & X). discriminate X.
  - destruct H as (e & st'' & X & _). discriminate X.
Qed.

(* the plan is read off the server *)
Theorem rename_emulated_refines_faults : forall Fu old new st (w : sworld sstate) s,
  c_auth st = true -> has_cap (bs "VERSION") st = false ->
  s_stream sstate w = [] -> live (s_peer sstate w) -> same_data s (s_peer sstate w) ->
  names_ok s -> length (s_store s) < Fu -> 3 <= Fu ->
  let pl := fun n => find_fault (s_count (s_peer sstate w) + n) (s_faults (s_peer sstate w)) in
  exists out w',
    runS (renamescript Fu old new st finish) w = (out, w') /\
    result_is out (fst (rename_abs pl s old new)) /\
    same_data (snd (rename_abs pl s old new)) (s_peer sstate w').
Proof.
  intros Fu old new st w s Ha Hver Hs Hl D Hn HF1 HF3 pl.
  destruct (rename_under_plan (s_faults (s_peer sstate w)) (s_count (s_peer sstate w)) Fu old new st w s Ha Hver)
    as (out & w' & R & D' & Hres); try assumption.
  { unfold tracks. repeat split; try assumption; try apply Hl; try apply D. lia. }
  exists out, w'. split; [exact R|]. split; [|exact D'].
  change (plan (s_faults (s_peer sstate w)) (s_count (s_peer sstate w))) with pl in Hres.
  destruct (fst (rename_abs pl s old new)); cbn [result_is].
  - destruct Hres as (st' & n & E & _). eauto.
  - destruct Hres as (st' & n & E & _). eauto.
  - exact Hres.
Qed.

(* C14 at the level of bytes: Client.renamescript without VERSION against the reference server with ANY list of
   planned faults, any store, any bodies, any reply encodings.  before / after = the server's store and active
   script before and after the call. *)
Theorem rename_bytes_safe : forall Fu old new st (w : sworld sstate),
  c_auth st = true -> has_cap (bs "VERSION") st = false ->
  s_stream sstate w = [] -> live (s_peer sstate w) -> names_ok (s_peer sstate w) ->
  length (s_store (s_peer sstate w)) < Fu -> 3 <= Fu ->
  let before := s_peer sstate w in
  exists out w',
    runS (renamescript Fu old new st finish) w = (out, w') /\
    let after := s_peer sstate w' in
    (* failures surface as False or Error only *)
    ((exists b st', out = ODone (VBool b) st') \/ (exists e st', out = OFail e st' /\ err_ok e)) /\
    (* every other script is untouched *)
    (forall n c, n <> old -> n <> new ->
       (assoc_get n (s_store before) = Some c <-> assoc_get n (s_store after) = Some c)) /\
    (* an existing target is never written and no success is reported *)
    (forall c, assoc_get new (s_store before) = Some c ->
       s_store after = s_store before /\ s_active after = s_active before /\ (forall st', out <> ODone (VBool true) st')) /\
    (* nothing is lost *)
    (forall c, assoc_get old (s_store before) = Some c ->
       assoc_get old (s_store after) = Some c \/ assoc_get new (s_store after) = Some (norm c)) /\
    (* an active script other than old stays active *)
    (forall a, s_active before = Some a -> a <> old -> s_active after = Some a) /\
    (* True means renamed *)
    (forall st', out = ODone (VBool true) st' -> NoDup (map fst (s_store before)) -> active_ok before -> new <> [] ->
       old <> new /\ assoc_get old (s_store after) = None /\
       (exists c, assoc_get old (s_store before) = Some c /\ assoc_get new (s_store after) = Some (norm c)) /\
       (s_active after = Some new <-> s_active before = Some old)).
Proof.
  intros Fu old new st w Ha Hver Hs Hl Hn HF1 HF3 before.
  destruct (rename_emulated_refines_faults Fu old new st w before Ha Hver Hs Hl (same_data_refl _) Hn HF1 HF3)
    as (out & w' & R & Hres & (D1 & D2 & D3)).
  exists out, w'. split; [exact R|]. cbv zeta.
  set (pl := fun n => find_fault (s_count (s_peer sstate w) + n) (s_faults (s_peer sstate w))) in *.
  destruct (rename_abs pl before old new) as [r s'] eqn:E. cbn [fst snd] in *.
  rewrite D1, D2.
  split.
  { destruct r; cbn [result_is] in Hres.
    - destruct Hres as (st' & ->). left. eauto.
    - destruct Hres as (st' & ->). left. eauto.
    - destruct Hres as (e & st' & -> & K). right. eauto. }
  split; [exact (RenameFacts.rename_untouched pl before s' old new r E)|].
  split.
  { intros c Hc. destruct (RenameFacts.rename_existing_target pl before s' old new r E c Hc) as (-> & Hr).
    split; [reflexivity|]. split; [reflexivity|]. intros st' ->. exact (Hr (result_is_true _ _ Hres)). }
  split; [exact (RenameFacts.rename_nothing_lost pl before s' old new r E)|].
  split; [exact (RenameFacts.rename_other_active pl before s' old new r E)|].
  intros st' -> Hnd Hact Hne.
  exact (RenameFacts.rename_success_C14 pl before s' old new r E Hnd Hact Hne (result_is_true _ _ Hres)).
Qed.

Print Assumptions rename_bytes_safe.
(* non-vacuity: the active script "a" renamed against a server that answers SETACTIVE (the fourth command) with NO
   and one that drops the connection at DELETESCRIPT: evaluated on the bytes, both scripts survive *)
Definition faulty_server (fl : list (nat * fault)) : sstate :=
  mkS (mkCfg (bs "PLAIN") (bs "PLAIN") false false (bs "u") (bs "p") 1000 5 true)
      [(bs "a", bs "keep;")] (Some (bs "a")) true false ANone [] [3; 6; 1; 0; 7]%N fl 0 0 [].

Definition faulty_world (fl : list (nat * fault)) : sworld sstate := mkSW sstate (faulty_server fl) [] 0 0 false [].

Example rename_faults_example :
  let run fl := runS (renamescript 10 (bs "a") (bs "b") (mkC true None [] []) finish) (faulty_world fl) in
  (match run [(3, FNo)] with
   | (ODone (VBool false) _, w') =>
       s_store (s_peer sstate w') = [(bs "a", bs "keep;"); (bs "b", bs "keep;")] /\ s_active (s_peer sstate w') = Some (bs "a")
   | _ => False
   end) /\
  (match run [(4, FBye)] with
   | (OFail ExBye _, w') =>
       s_store (s_peer sstate w') = [(bs "a", bs "keep;"); (bs "b", bs "keep;")] /\ s_active (s_peer sstate w') = Some (bs "b")
   | _ => False
   end) /\
  (match run [(1, FSilent)] with
   | (OFail ExTimeout _, w') => s_store (s_peer sstate w') = [(bs "a", bs "keep;")]
   | _ => False
   end) /\
  live (faulty_server [(3, FNo)]) /\ names_ok (faulty_server [(3, FNo)]).
Proof. vm_compute. repeat split; repeat constructor. Qed.

Print Assumptions rename_emulated_refines_faults.
