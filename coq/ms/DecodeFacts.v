(* DecodeFacts.v — property C17, pure decoding half: "script names and script bodies come
   back exactly as the server holds them; stored data is never interpreted as protocol".

   The client (ms/Client.v) assembles the reply of LISTSCRIPTS into a byte string in which
   every script name appears as [quote name] (whether the server sent a quoted string or a
   literal), followed by " ACTIVE" for the active script, followed by CRLF; it then decodes
   that string with [splitlines] + [parse_listing].  The reply of GETSCRIPT is assembled
   into [quote body ++ ...] and decoded with [scan_quoted] + [unescape_q] + [splitlines] +
   [join [10]].  These decoders invert the encoding: names come back verbatim and in order, the
   only condition on a name being "no CR, no LF"; the body comes back as join LF (splitlines body)
   for ANY body: every line intact, line endings normalised, at most ONE trailing empty line lost. *)
From Coq Require Import String.
From Coq Require Import List Arith NArith Bool Lia.
From SV Require Import Bytes BytesFacts Client StatusFacts.
Import ListNotations.
Open Scope N_scope.

Lemma sa_nil : forall cur,
  splitlines_aux cur [] = match cur with [] => [] | _ => [rev cur] end.
Proof. reflexivity. Qed.

Lemma sa_lf : forall cur t, splitlines_aux cur (10 :: t) = rev cur :: splitlines_aux [] t.
Proof. reflexivity. Qed.

Lemma sa_crlf : forall cur t,
  splitlines_aux cur (13 :: 10 :: t) = rev cur :: splitlines_aux [] t.
Proof. reflexivity. Qed.

Lemma sa_cr : forall cur b t, b <> 10 ->
  splitlines_aux cur (13 :: b :: t) = rev cur :: splitlines_aux [] (b :: t).
Proof.
  intros cur b t H. apply N.eqb_neq in H.
  change (splitlines_aux cur (13 :: b :: t))
    with (if b =? 10 then rev cur :: splitlines_aux [] t
          else rev cur :: splitlines_aux [] (b :: t)).
  rewrite H. reflexivity.
Qed.

Lemma sa_cr_end : forall cur, splitlines_aux cur [13] = [rev cur].
Proof. reflexivity. Qed.

Lemma sa_other : forall cur a t, a <> 10 -> a <> 13 ->
  splitlines_aux cur (a :: t) = splitlines_aux (a :: cur) t.
Proof.
  intros cur a t H1 H2. apply N.eqb_neq in H1, H2. cbn [splitlines_aux].
  rewrite H1, H2. reflexivity.
Qed.

Lemma join_one : forall sep (x : bytes), join sep [x] = x.
Proof. reflexivity. Qed.

Lemma join_cons2 : forall sep (x y : bytes) t,
  join sep (x :: y :: t) = x ++ sep ++ join sep (y :: t).
Proof. reflexivity. Qed.

Theorem unescape_escape : forall l, unescape_q (escape_q l) = l.
Proof. exact BytesFacts.unescape_escape. Qed.

Theorem scan_quoted_quote : forall l r, scan_quoted (quote l ++ r) = Some (escape_q l, r).
Proof. exact BytesFacts.scan_quoted_quote. Qed.

Corollary decode_quote : forall l r,
  match scan_quoted (quote l ++ r) with
  | Some (b, r') => unescape_q b = l /\ r' = r
  | None => False
  end.
Proof.
  intros l r. rewrite scan_quoted_quote. split; [apply unescape_escape | reflexivity].
Qed.

Definition name_ok (n : bytes) : Prop :=
  contains_byte 13 n = false /\ contains_byte 10 n = false.

(* the predicate StatusFacts.line_safe, in the boolean form in which the listing theorems are stated *)
Lemma name_ok_line_safe : forall l, name_ok l <-> line_safe l.
Proof.
  intro l. unfold name_ok, line_safe. rewrite !contains_byte_Forall. split.
  - intros [A B]. exact (Forall_and B A).
  - intro H. apply Forall_and_inv in H. tauto.
Qed.

(* a CR/LF-free segment x is accumulated whole; F is what splitlines_aux does with the accumulated line at tl *)
Lemma splitlines_aux_run : forall x tl (F : bytes -> list bytes),
  name_ok x -> (forall cur, splitlines_aux cur tl = F (rev cur)) ->
  forall cur, splitlines_aux cur (x ++ tl) = F (rev cur ++ x).
Proof.
  intros x tl F H HF. apply name_ok_line_safe in H.
  induction H as [|a x [H10 H13] _ IH]; intro cur; [rewrite app_nil_r; apply HF|].
  cbn [app]. rewrite sa_other by assumption. rewrite IH. cbn [rev]. rewrite <- app_assoc. reflexivity.
Qed.

Lemma splitlines_aux_crlf : forall x cur rest, name_ok x ->
  splitlines_aux cur (x ++ 13 :: 10 :: rest) = (rev cur ++ x) :: splitlines_aux [] rest.
Proof.
  intros x cur rest H.
  exact (splitlines_aux_run x _ (fun y => y :: splitlines_aux [] rest) H (fun c => sa_crlf c rest) cur).
Qed.

Lemma splitlines_aux_lf : forall x cur rest, name_ok x ->
  splitlines_aux cur (x ++ 10 :: rest) = (rev cur ++ x) :: splitlines_aux [] rest.
Proof.
  intros x cur rest H.
  exact (splitlines_aux_run x _ (fun y => y :: splitlines_aux [] rest) H (fun c => sa_lf c rest) cur).
Qed.

Lemma splitlines_aux_end : forall x cur, name_ok x ->
  splitlines_aux cur x = match rev cur ++ x with [] => [] | _ :: _ => [rev cur ++ x] end.
Proof.
  intros x cur H. rewrite <- (app_nil_r x) at 1.
  apply (splitlines_aux_run x [] (fun y => match y with [] => [] | _ :: _ => [y] end) H).
  intro c. rewrite sa_nil. destruct c as [|a c]; [reflexivity|]. cbn [rev]. destruct (rev c); reflexivity.
Qed.

(* by induction on a bound of the length: after CR the function recurses two octets down when LF follows *)
Lemma splitlines_aux_ok : forall n l cur, (length l <= n)%nat -> line_safe cur ->
  Forall line_safe (splitlines_aux cur l).
Proof.
  assert (Hone : forall cur, line_safe cur -> Forall line_safe [rev cur])
    by (intros cur Hc; constructor; [apply Forall_rev; exact Hc | constructor]).
  induction n as [|n IH]; intros l cur Hl Hc.
  - destruct l as [|a t]; [|cbn [length] in Hl; lia].
    rewrite sa_nil. destruct cur; [constructor | apply Hone; exact Hc].
  - destruct l as [|a t].
    + rewrite sa_nil. destruct cur; [constructor | apply Hone; exact Hc].
    + cbn [length] in Hl.
      assert (Hcut : forall t', (length t' <= n)%nat -> Forall line_safe (rev cur :: splitlines_aux [] t'))
        by (intros t' Ht'; constructor; [apply Forall_rev; exact Hc | apply IH; [exact Ht' | constructor]]).
      destruct (N.eq_dec a 10) as [->|N10]; [rewrite sa_lf; apply Hcut; lia|].
      destruct (N.eq_dec a 13) as [->|N13].
      * destruct t as [|b t']; [rewrite sa_cr_end; apply Hone; exact Hc|].
        cbn [length] in Hl. destruct (N.eq_dec b 10) as [->|Nb].
        -- rewrite sa_crlf. apply Hcut. lia.
        -- rewrite sa_cr by assumption. apply Hcut. cbn [length]. lia.
      * rewrite sa_other by assumption. apply IH; [lia|]. constructor; [split; assumption | exact Hc].
Qed.

Theorem splitlines_ok : forall l, Forall name_ok (splitlines l).
Proof.
  intro l. unfold splitlines. eapply Forall_impl; [intro x; apply name_ok_line_safe|].
  apply (splitlines_aux_ok (length l)); [lia | constructor].
Qed.

Definition bs_ACTIVE : bytes := [65; 67; 84; 73; 86; 69].

Definition entry_line (e : bytes * bool) : bytes :=
  quote (fst e) ++ (if snd e then 32 :: bs_ACTIVE else []).

Definition listing_resp (es : list (bytes * bool)) : bytes :=
  concat (map (fun e => entry_line e ++ CRLF) es).

Lemma bs_ACTIVE_eq : bs_ACTIVE = bs "ACTIVE".
Proof. reflexivity. Qed.

Lemma name_ok_entry_line : forall e, name_ok (fst e) -> name_ok (entry_line e).
Proof.
  intros [n b] H. apply name_ok_line_safe. apply name_ok_line_safe in H. cbn [fst] in H.
  unfold entry_line. cbn [fst snd]. apply line_safe_app; [apply quote_safe; exact H|].
  destruct b; repeat constructor; discriminate.
Qed.

Lemma listing_resp_cons : forall e es,
  listing_resp (e :: es) = entry_line e ++ 13 :: 10 :: listing_resp es.
Proof.
  intros e es. unfold listing_resp. cbn [map concat]. unfold CRLF.
  rewrite <- app_assoc. reflexivity.
Qed.

Theorem splitlines_listing : forall es,
  Forall (fun e => name_ok (fst e)) es ->
  splitlines (listing_resp es) = map entry_line es.
Proof.
  unfold splitlines. induction es as [|e es IH]; intro H.
  - reflexivity.
  - inversion H as [|? ? He Hes]; subst.
    rewrite listing_resp_cons.
    rewrite splitlines_aux_crlf by (apply name_ok_entry_line; assumption).
    cbn [rev app map]. rewrite IH by assumption. reflexivity.
Qed.

Lemma active_word_yes : is_active_word (strip_ws (32 :: bs_ACTIVE)) = true.
Proof. vm_compute. reflexivity. Qed.

Lemma active_word_no : is_active_word (strip_ws []) = false.
Proof. vm_compute. reflexivity. Qed.

Lemma scan_quoted_entry_line : forall e,
  scan_quoted (entry_line e) =
  Some (escape_q (fst e), if snd e then 32 :: bs_ACTIVE else []).
Proof. intro e. unfold entry_line. apply scan_quoted_quote. Qed.

Lemma parse_listing_cons : forall e t active acc,
  parse_listing (entry_line e :: t) active acc =
  if snd e then parse_listing t (Some (fst e)) acc
  else parse_listing t active (fst e :: acc).
Proof.
  intros [n b] t active acc. cbn [parse_listing].
  rewrite scan_quoted_entry_line. cbn [fst snd]. rewrite unescape_escape.
  destruct b.
  - rewrite active_word_yes. reflexivity.
  - rewrite active_word_no. reflexivity.
Qed.

(* the name of the LAST entry flagged active, if any (the parser overwrites) *)
Fixpoint last_active (es : list (bytes * bool)) : option bytes :=
  match es with
  | [] => None
  | e :: t =>
      match last_active t with
      | Some m => Some m
      | None => if snd e then Some (fst e) else None
      end
  end.

Definition inactive_names (es : list (bytes * bool)) : list bytes :=
  map fst (filter (fun e => negb (snd e)) es).

Lemma parse_listing_gen : forall es active acc,
  parse_listing (map entry_line es) active acc =
  (match last_active es with Some m => Some m | None => active end,
   rev acc ++ inactive_names es).
Proof.
  unfold inactive_names.
  induction es as [|[n b] es IH]; intros active acc.
  - cbn [map parse_listing last_active filter]. rewrite app_nil_r. reflexivity.
  - cbn [map]. rewrite parse_listing_cons. cbn [fst snd last_active filter].
    destruct b; cbn [negb]; rewrite IH.
    + destruct (last_active es); reflexivity.
    + cbn [map fst rev]. rewrite <- app_assoc. destruct (last_active es); reflexivity.
Qed.

(* When several entries are flagged active the LAST one wins and the earlier ones are dropped from both
   components. *)
Theorem parse_listing_spec : forall es,
  parse_listing (map entry_line es) None [] =
  (last_active es, map fst (filter (fun e => negb (snd e)) es)).
Proof.
  intros es. rewrite parse_listing_gen. cbn [rev app].
  destruct (last_active es); reflexivity.
Qed.

Theorem listscripts_decode : forall es,
  Forall (fun e => name_ok (fst e)) es ->
  parse_listing (splitlines (listing_resp es)) None [] =
  (last_active es, map fst (filter (fun e => negb (snd e)) es)).
Proof.
  intros es H. rewrite splitlines_listing by assumption. apply parse_listing_spec.
Qed.

Definition all_inactive (es : list (bytes * bool)) : Prop :=
  Forall (fun e => snd e = false) es.

Lemma last_active_none : forall es, all_inactive es -> last_active es = None.
Proof.
  induction es as [|[n b] es IH]; intro H; [reflexivity|].
  inversion H as [|? ? Hb Hes]; subst. cbn [snd] in Hb. subst b.
  cbn [last_active snd]. rewrite IH by assumption. reflexivity.
Qed.

Lemma inactive_names_all : forall es, all_inactive es -> inactive_names es = map fst es.
Proof.
  unfold inactive_names.
  induction es as [|[n b] es IH]; intro H; [reflexivity|].
  inversion H as [|? ? Hb Hes]; subst. cbn [snd] in Hb. subst b.
  cbn [filter snd negb map fst]. rewrite IH by assumption. reflexivity.
Qed.

Lemma last_active_app_one : forall es1 n es2, all_inactive es2 ->
  last_active (es1 ++ (n, true) :: es2) = Some n.
Proof.
  induction es1 as [|e es1 IH]; intros n es2 H.
  - cbn [app last_active fst snd]. rewrite last_active_none by assumption. reflexivity.
  - cbn [app last_active]. rewrite IH by assumption. reflexivity.
Qed.

Lemma inactive_names_app : forall a b, inactive_names (a ++ b) = inactive_names a ++ inactive_names b.
Proof.
  intros a b. unfold inactive_names. rewrite filter_app, map_app. reflexivity.
Qed.

Theorem listscripts_exact : forall es1 n es2,
  Forall (fun e => name_ok (fst e)) (es1 ++ (n, true) :: es2) ->
  all_inactive es1 -> all_inactive es2 ->
  parse_listing (splitlines (listing_resp (es1 ++ (n, true) :: es2))) None [] =
  (Some n, map fst es1 ++ map fst es2).
Proof.
  intros es1 n es2 Hok H1 H2. rewrite listscripts_decode by assumption.
  rewrite last_active_app_one by assumption.
  fold (inactive_names (es1 ++ (n, true) :: es2)).
  rewrite inactive_names_app.
  change ((n, true) :: es2) with ([(n, true)] ++ es2). rewrite inactive_names_app.
  rewrite (inactive_names_all es1), (inactive_names_all es2) by assumption. reflexivity.
Qed.

Theorem listscripts_exact_none : forall es,
  Forall (fun e => name_ok (fst e)) es -> all_inactive es ->
  parse_listing (splitlines (listing_resp es)) None [] = (None, map fst es).
Proof.
  intros es Hok H. rewrite listscripts_decode by assumption.
  rewrite last_active_none by assumption.
  fold (inactive_names es). rewrite inactive_names_all by assumption. reflexivity.
Qed.

Theorem getscript_decode : forall body r,
  scan_quoted (quote body ++ r) = Some (escape_q body, r).
Proof. exact scan_quoted_quote. Qed.

Theorem getscript_value : forall body r,
  match scan_quoted (quote body ++ r) with
  | Some (b, _) => join [10] (splitlines (unescape_q b))
  | None => []
  end = join [10] (splitlines body).
Proof.
  intros body r. rewrite getscript_decode, unescape_escape. reflexivity.
Qed.

(* remove all trailing empty lines *)
Fixpoint drop_trailing_empty (ls : list bytes) : list bytes :=
  match ls with
  | [] => []
  | x :: t =>
      match drop_trailing_empty t with
      | [] => match x with [] => [] | _ :: _ => [x] end
      | y :: t' => x :: y :: t'
      end
  end.

(* remove ONE trailing empty line (the last element, when it is empty) *)
Fixpoint drop_last_empty (ls : list bytes) : list bytes :=
  match ls with
  | [] => []
  | x :: t =>
      match t with
      | [] => match x with [] => [] | _ :: _ => [x] end
      | _ :: _ => x :: drop_last_empty t
      end
  end.

Lemma dte_cons : forall x t,
  drop_trailing_empty (x :: t) =
  match drop_trailing_empty t with
  | [] => match x with [] => [] | _ :: _ => [x] end
  | y :: t' => x :: y :: t'
  end.
Proof. reflexivity. Qed.

Lemma dle_one : forall x, drop_last_empty [x] = match x with [] => [] | _ :: _ => [x] end.
Proof. reflexivity. Qed.

Lemma dle_cons2 : forall x y t, drop_last_empty (x :: y :: t) = x :: drop_last_empty (y :: t).
Proof. reflexivity. Qed.

Lemma dte_decompose : forall ls, exists k, ls = drop_trailing_empty ls ++ repeat [] k.
Proof.
  induction ls as [|x t [k IH]].
  - exists 0%nat. reflexivity.
  - rewrite dte_cons. destruct (drop_trailing_empty t) as [|y t'].
    + cbn [app] in IH. destruct x as [|c x].
      * exists (S k). cbn [app repeat]. rewrite <- IH. reflexivity.
      * exists k. cbn [app]. rewrite <- IH. reflexivity.
    + exists k. rewrite IH at 1. reflexivity.
Qed.

Lemma dte_last : forall ls, last (drop_trailing_empty ls) [0] <> [].
Proof.
  induction ls as [|x t IH].
  - discriminate.
  - rewrite dte_cons. destruct (drop_trailing_empty t) as [|y t'].
    + destruct x; discriminate.
    + exact IH.
Qed.

Lemma dte_repeat : forall k, drop_trailing_empty (repeat [] k) = [].
Proof.
  induction k as [|k IH]; [reflexivity|]. cbn [repeat]. rewrite dte_cons, IH. reflexivity.
Qed.

Lemma dte_app_repeat : forall a k,
  drop_trailing_empty (a ++ repeat [] k) = drop_trailing_empty a.
Proof.
  induction a as [|x a IH]; intro k.
  - apply dte_repeat.
  - cbn [app]. rewrite !dte_cons, IH. reflexivity.
Qed.

Lemma dte_fix : forall a, last a [0] <> [] -> drop_trailing_empty a = a.
Proof.
  induction a as [|x a IH]; intro H; [reflexivity|].
  rewrite dte_cons. destruct a as [|y t].
  - cbn [drop_trailing_empty]. destruct x; [exfalso; apply H; reflexivity | reflexivity].
  - rewrite IH by exact H. reflexivity.
Qed.

Lemma dle_fix : forall a, last a [0] <> [] -> drop_last_empty a = a.
Proof.
  induction a as [|x a IH]; intro H; [reflexivity|].
  destruct a as [|y t].
  - rewrite dle_one. destruct x; [exfalso; apply H; reflexivity | reflexivity].
  - rewrite dle_cons2. f_equal. apply IH. exact H.
Qed.

Lemma dte_dle : forall ls,
  drop_trailing_empty (drop_last_empty ls) = drop_trailing_empty ls.
Proof.
  induction ls as [|x t IH]; [reflexivity|].
  destruct t as [|y t].
  - rewrite dle_one. destruct x; reflexivity.
  - rewrite dle_cons2. rewrite (dte_cons x (drop_last_empty (y :: t))), IH.
    rewrite <- dte_cons. reflexivity.
Qed.

(* re-splitting LF-joined clean lines gives the lines back, minus ONE trailing empty
   line: ["a"; ""] -> "a\n" -> ["a"],  [""] -> "" -> [] *)
Theorem splitlines_join : forall ls, Forall name_ok ls ->
  splitlines (join [10] ls) = drop_last_empty ls.
Proof.
  unfold splitlines. induction ls as [|x t IH]; intro H; [reflexivity|].
  inversion H as [|? ? Hx Ht]; subst.
  destruct t as [|y t].
  - rewrite join_one, dle_one. rewrite splitlines_aux_end by assumption.
    cbn [rev app]. reflexivity.
  - rewrite join_cons2, dle_cons2. change ([10] ++ join [10] (y :: t)) with (10 :: join [10] (y :: t)).
    rewrite splitlines_aux_lf by assumption. cbn [rev app]. rewrite IH by assumption.
    reflexivity.
Qed.

Corollary splitlines_join_exact : forall ls, Forall name_ok ls -> last ls [0] <> [] ->
  splitlines (join [10] ls) = ls.
Proof.
  intros ls H Hl. rewrite splitlines_join by assumption. apply dle_fix. assumption.
Qed.

Corollary splitlines_join_dte : forall ls, Forall name_ok ls ->
  drop_trailing_empty (splitlines (join [10] ls)) = drop_trailing_empty ls.
Proof.
  intros ls H. rewrite splitlines_join by assumption. apply dte_dle.
Qed.

(* the value getscript returns has the same lines as the stored body, except that ONE
   trailing empty line (body ending in two line terminators) is lost *)
Theorem lines_preserved_exact : forall body,
  splitlines (join [10] (splitlines body)) = drop_last_empty (splitlines body).
Proof. intro body. apply splitlines_join, splitlines_ok. Qed.

Theorem lines_preserved : forall body,
  drop_trailing_empty (splitlines (join [10] (splitlines body))) =
  drop_trailing_empty (splitlines body).
Proof. intro body. apply splitlines_join_dte, splitlines_ok. Qed.

Corollary getscript_lines : forall body r,
  splitlines (match scan_quoted (quote body ++ r) with
              | Some (b, _) => join [10] (splitlines (unescape_q b))
              | None => []
              end) = drop_last_empty (splitlines body).
Proof. intros body r. rewrite getscript_value. apply lines_preserved_exact. Qed.

(* names that look like protocol: a literal header, a response code, a quoted string
   followed by ACTIVE, quotes and backslashes; one entry really is active *)
Definition ex_entries : list (bytes * bool) :=
  [ (bs "{5}", false);
    (bs "OK", false);
    (bs """x"" ACTIVE", false);
    (bs "main", true);
    (bs "a\b""c\", false);
    (bs "NO (QUOTA) ""full""", false) ].

Example ex_entries_ok : Forall (fun e => name_ok (fst e)) ex_entries.
Proof. repeat constructor. Qed.

Example ex_listing_wire :
  listing_resp ex_entries =
  bs """{5}""" ++ CRLF ++
  bs """OK""" ++ CRLF ++
  bs """\""x\"" ACTIVE""" ++ CRLF ++
  bs """main"" ACTIVE" ++ CRLF ++
  bs """a\\b\""c\\""" ++ CRLF ++
  bs """NO (QUOTA) \""full\""""" ++ CRLF.
Proof. vm_compute. reflexivity. Qed.

Example ex_listing :
  parse_listing (splitlines (listing_resp ex_entries)) None [] =
  (Some (bs "main"),
   [bs "{5}"; bs "OK"; bs """x"" ACTIVE"; bs "a\b""c\"; bs "NO (QUOTA) ""full"""]).
Proof. vm_compute. reflexivity. Qed.

(* the same instance through the theorem (the hypotheses are satisfiable) *)
Example ex_listing_thm :
  parse_listing (splitlines (listing_resp ex_entries)) None [] =
  (Some (bs "main"),
   map fst [ (bs "{5}", false); (bs "OK", false); (bs """x"" ACTIVE", false) ] ++
   map fst [ (bs "a\b""c\", false); (bs "NO (QUOTA) ""full""", false) ]).
Proof.
  apply (listscripts_exact
           [ (bs "{5}", false); (bs "OK", false); (bs """x"" ACTIVE", false) ]
           (bs "main")
           [ (bs "a\b""c\", false); (bs "NO (QUOTA) ""full""", false) ]).
  - exact ex_entries_ok.
  - repeat constructor.
  - repeat constructor.
Qed.

(* a body that looks like protocol, with mixed CRLF / LF / CR line endings *)
Definition ex_body : bytes :=
  bs "{5}" ++ [13; 10] ++ bs "OK" ++ [10] ++ bs "NO ""x""" ++ [13] ++
  bs "keep \ this;" ++ [13; 10] ++ [10] ++ bs "stop;" ++ [13; 10].

Example ex_body_lines :
  splitlines ex_body =
  [bs "{5}"; bs "OK"; bs "NO ""x"""; bs "keep \ this;"; []; bs "stop;"].
Proof. vm_compute. reflexivity. Qed.

Example ex_getscript :
  match scan_quoted (quote ex_body ++ CRLF ++ bs "OK ""done""" ++ CRLF) with
  | Some (b, _) => join [10] (splitlines (unescape_q b))
  | None => []
  end =
  bs "{5}" ++ [10] ++ bs "OK" ++ [10] ++ bs "NO ""x""" ++ [10] ++
  bs "keep \ this;" ++ [10] ++ [10] ++ bs "stop;".
Proof. vm_compute. reflexivity. Qed.

Example ex_getscript_lines :
  splitlines (join [10] (splitlines ex_body)) = splitlines ex_body.
Proof. vm_compute. reflexivity. Qed.

(* the one thing that is lost: a single trailing empty line *)
Example ex_trailing_blank :
  splitlines (bs "a" ++ [10; 10]) = [bs "a"; []] /\
  join [10] (splitlines (bs "a" ++ [10; 10])) = bs "a" ++ [10] /\
  splitlines (join [10] (splitlines (bs "a" ++ [10; 10]))) = [bs "a"].
Proof. vm_compute. repeat split. Qed.

Print Assumptions unescape_escape.
Print Assumptions scan_quoted_quote.
Print Assumptions splitlines_listing.
Print Assumptions parse_listing_spec.
Print Assumptions listscripts_decode.
Print Assumptions listscripts_exact.
Print Assumptions listscripts_exact_none.
Print Assumptions getscript_decode.
Print Assumptions getscript_value.
Print Assumptions splitlines_ok.
Print Assumptions splitlines_join.
Print Assumptions splitlines_join_exact.
Print Assumptions lines_preserved_exact.
Print Assumptions lines_preserved.
