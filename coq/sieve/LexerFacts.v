(* LexerFacts.v — facts about the lexer (Lexer.v) and the printer's rendering of values (Printer.v)
   that property C04 "print/parse round trip" rests on: string and list values survive unchanged
   whatever characters they contain.

   (a) a string token found by the lexer is *exactly* a string token (its text, taken alone, is matched
       completely by the string rule);
   (b) an exact string token is printed as it is (print_item: an item that starts and ends with a double quote
       is written unchanged) and is lexed back as the same single token whatever follows it;
   (c) a printed list of exact string tokens is lexed back as '[' token (',' token)* ']' — the separator
       ", " the printer writes disappears as whitespace — whatever the items contain. *)
From Coq Require Import String.
From Coq Require Import List NArith Bool Arith Lia ZifyBool ZifyN.
From SV Require Import Bytes BytesFacts Lexer Tables Printer.
Import ListNotations.
Local Open Scope nat_scope.

Lemma take_drop_stop : forall f v tail,
  forallb f v = true -> match tail with [] => True | x :: _ => f x = false end ->
  take_while f (v ++ tail) = v /\ drop_while f (v ++ tail) = tail.
Proof.
  intros f. induction v as [|a v IH]; intros tail H Ht; cbn [app take_while drop_while].
  - destruct tail as [|x t]; [auto|]. cbn. rewrite Ht. auto.
  - cbn [forallb] in H. apply andb_true_iff in H as [Ha Hv]. rewrite Ha.
    destruct (IH tail Hv Ht) as (A & B). rewrite A, B. auto.
Qed.

(* The scanners match their first byte against a literal, which Coq compiles to a match on the bits of the
   byte.  [byte_lit c tac] splits [c] bit by bit; [tac] closes every branch (those that leave the literal
   reduce at once). *)
Ltac byte_lit c tac := destruct c as [|c]; [tac|]; repeat (destruct c as [c|c|]; try tac).

Lemma scan_hash_first : forall c t, (c =? 35)%N = false -> scan_hash (c :: t) = None.
Proof. intros c t H. byte_lit c ltac:(first [reflexivity|discriminate]). Qed.

Lemma scan_bracket_comment_first : forall c t, (c =? 47)%N = false -> scan_bracket_comment (c :: t) = None.
Proof. intros c t H. byte_lit c ltac:(first [reflexivity|discriminate]). Qed.

Lemma scan_multiline_first : forall c t, (c =? 116)%N = false -> scan_multiline (c :: t) = None.
Proof. intros c t H. byte_lit c ltac:(first [reflexivity|discriminate]). Qed.

Lemma scan_string_first : forall c t, (c =? 34)%N = false -> scan_string (c :: t) = None.
Proof. intros c t H. byte_lit c ltac:(first [reflexivity|discriminate]). Qed.

Lemma scan_tag_first : forall c t, (c =? 58)%N = false -> scan_tag (c :: t) = None.
Proof. intros c t H. byte_lit c ltac:(first [reflexivity|discriminate]). Qed.

Lemma scan_identifier_first : forall c t, is_ident_start c = false -> scan_identifier (c :: t) = None.
Proof. intros c t H. cbn [scan_identifier]. rewrite H. reflexivity. Qed.

Lemma scan_number_first : forall c t, is_digit c = false -> scan_number (c :: t) = None.
Proof. intros c t H. unfold scan_number. cbn [take_while]. rewrite H. reflexivity. Qed.

Inductive bclass := BPunct (k : tkind) | BHash | BSlash | BQuote | BColon | BDigit | BIdent | BOther.

Definition byte_class (c : N) : bclass :=
  if (c =? 91)%N then BPunct TLeftBracket else if (c =? 93)%N then BPunct TRightBracket
  else if (c =? 40)%N then BPunct TLeftParen else if (c =? 41)%N then BPunct TRightParen
  else if (c =? 123)%N then BPunct TLeftCBracket else if (c =? 125)%N then BPunct TRightCBracket
  else if (c =? 59)%N then BPunct TSemicolon else if (c =? 44)%N then BPunct TComma
  else if (c =? 35)%N then BHash else if (c =? 47)%N then BSlash else if (c =? 34)%N then BQuote
  else if (c =? 58)%N then BColon else if is_digit c then BDigit else if is_ident_start c then BIdent else BOther.

(* the first byte selects the only alternatives of Parser.lrules that can match *)
Theorem scan_rules_cons : forall c t,
  scan_rules (c :: t) =
  match byte_class c with
  | BPunct k => Some (k, 1)
  | BHash => with_kind THashComment (scan_hash (c :: t))
  | BSlash => with_kind TBracketComment (scan_bracket_comment (c :: t))
  | BQuote => with_kind TString (scan_string (c :: t))
  | BColon => with_kind TTag (scan_tag (c :: t))
  | BDigit => with_kind TNumber (scan_number (c :: t))
  | BIdent => orelse (with_kind TMultiline (scan_multiline (c :: t))) (with_kind TIdentifier (scan_identifier (c :: t)))
  | BOther => None
  end.
Proof.
  intros c t. unfold byte_class, scan_rules. cbn [scan_single].
  (* a byte that is a literal of the alternation: everything computes *)
  do 8 (let E := fresh in destruct (c =? _)%N eqn:E; [apply N.eqb_eq in E; subst c; reflexivity|clear E]; cbn [orelse]).
  destruct (c =? 35)%N eqn:E35; [apply N.eqb_eq in E35; subst c; reflexivity|].
  destruct (c =? 47)%N eqn:E47; [apply N.eqb_eq in E47; subst c; destruct (scan_bracket_comment (47%N :: t)); reflexivity|].
  destruct (c =? 34)%N eqn:E34; [apply N.eqb_eq in E34; subst c; destruct (scan_string (34%N :: t)); reflexivity|].
  destruct (c =? 58)%N eqn:E58; [apply N.eqb_eq in E58; subst c; destruct (scan_tag (58%N :: t)); reflexivity|].
  rewrite (scan_hash_first c t E35), (scan_bracket_comment_first c t E47), (scan_string_first c t E34), (scan_tag_first c t E58).
  cbn [with_kind orelse].
  destruct (is_digit c) eqn:Ed.
  - rewrite scan_multiline_first, scan_identifier_first; [reflexivity| |]; unfold is_ident_start, is_alpha, is_upper, is_lower, is_digit in *; lia.
  - rewrite (scan_number_first c t Ed). destruct (is_ident_start c) eqn:Ei.
    + destruct (scan_multiline (c :: t)), (scan_identifier (c :: t)); reflexivity.
    + rewrite scan_multiline_first, (scan_identifier_first c t Ei); [reflexivity|].
      unfold is_ident_start, is_alpha, is_upper, is_lower in Ei; lia.
Qed.

Lemma with_kind_inv : forall k o k' n, with_kind k o = Some (k', n) -> k = k' /\ o = Some n.
Proof. intros k [m|] k' n H; inversion H; auto. Qed.

Definition exact_string (s : bytes) : Prop := scan_string s = Some (length s).

Lemma scan_string_body_token : forall l n, scan_string_body l = Some n ->
  exists b r, l = (b ++ [34%N]) ++ r /\ n = length (b ++ [34%N]) /\
              forall r', scan_string_body ((b ++ [34%N]) ++ r') = Some n.
Proof.
  fix IH 1. intros [|c t] n H; [discriminate|]. cbn [scan_string_body] in H.
  destruct (c =? 34)%N eqn:E34.
  - apply N.eqb_eq in E34. subst c. inversion H; subst. exists [], t. auto.
  - destruct (c =? 92)%N eqn:E92.
    + destruct t as [|d t']; [discriminate|]. destruct (d =? 10)%N eqn:E10; [discriminate|].
      destruct (scan_string_body t') as [m|] eqn:E; [|discriminate]. inversion H; subst.
      destruct (IH t' m E) as (b & r & -> & -> & K). exists (c :: d :: b), r.
      split; [reflexivity|]. split; [reflexivity|]. intro r'. cbn [app scan_string_body]. rewrite E34, E92, E10, K. reflexivity.
    + destruct (scan_string_body t) as [m|] eqn:E; [|discriminate]. inversion H; subst.
      destruct (IH t m E) as (b & r & -> & -> & K). exists (c :: b), r.
      split; [reflexivity|]. split; [reflexivity|]. intro r'. cbn [app scan_string_body]. rewrite E34, E92, K. reflexivity.
Qed.

Lemma scan_string_token : forall l n, scan_string l = Some n ->
  exists b r, l = (34%N :: b ++ [34%N]) ++ r /\ n = length (34%N :: b ++ [34%N]) /\
              forall r', scan_string ((34%N :: b ++ [34%N]) ++ r') = Some n.
Proof.
  intros [|c t] n H; [discriminate|].
  destruct (c =? 34)%N eqn:E; [|rewrite (scan_string_first c t E) in H; discriminate].
  apply N.eqb_eq in E. subst c. cbn [scan_string] in H.
  destruct (scan_string_body t) as [m|] eqn:Eb; [|discriminate]. inversion H; subst.
  destruct (scan_string_body_token t m Eb) as (b & r & -> & -> & K). exists b, r.
  split; [reflexivity|]. split; [reflexivity|]. intro r'. cbn [app scan_string]. rewrite K. reflexivity.
Qed.

Lemma scan_string_firstn : forall l n,
  scan_string l = Some n -> exact_string (firstn n l).
Proof.
  intros l n H. destruct (scan_string_token l n H) as (b & r & -> & -> & K).
  rewrite firstn_length_app. specialize (K []). rewrite app_nil_r in K. exact K.
Qed.

Lemma scan_rules_string : forall l n, scan_rules l = Some (TString, n) -> scan_string l = Some n.
Proof.
  intros [|c t] n H; [discriminate|]. rewrite scan_rules_cons in H.
  destruct (byte_class c) eqn:Ec; try discriminate; try (apply with_kind_inv in H; destruct H; (discriminate || assumption)).
  - inversion H; subst k. revert Ec. unfold byte_class.
    repeat (destruct (c =? _)%N; [intro; discriminate|]). destruct (is_digit c), (is_ident_start c); intro; discriminate.
  - destruct (scan_multiline (c :: t)); [discriminate|]. apply with_kind_inv in H. destruct H. discriminate.
Qed.

Theorem lexed_strings_exact : forall pos l t rest,
  next_token pos l = LTok t rest -> t_kind t = TString -> exact_string (t_val t).
Proof.
  intros pos l t rest H Hk. unfold next_token in H.
  destruct (drop_while is_space l) as [|c l1] eqn:Ed; [discriminate|].
  destruct (scan_rules (c :: l1)) as [[k n]|] eqn:Er; [|discriminate].
  inversion H; subst. cbn [t_kind t_val] in *. subst k.
  apply scan_string_firstn. apply scan_rules_string. exact Er.
Qed.

Lemma exact_string_shape : forall s, exact_string s ->
  exists b, s = 34%N :: b ++ [34%N] /\ forall rest, scan_string (s ++ rest) = Some (length s).
Proof.
  intros s H. destruct (scan_string_token s _ H) as (b & r & E & Hn & K).
  assert (r = []) as ->.
  { apply (f_equal (@length _)) in E. rewrite app_length, <- Hn in E. destruct r; [reflexivity|cbn [length] in E; lia]. }
  rewrite app_nil_r in E. subst s. eauto.
Qed.

Theorem print_item_exact : forall s, exact_string s -> print_item s = s.
Proof.
  intros s H. destruct (exact_string_shape s H) as (b & -> & _).
  unfold print_item, ends_with. change (34%N :: b ++ [34%N]) with ((34%N :: b) ++ [34%N]) at 3. rewrite rev_app_distr.
  destruct b; reflexivity.
Qed.

Lemma map_print_item_exact : forall vs, Forall exact_string vs -> map print_item vs = vs.
Proof.
  induction vs as [|v r IH]; intro H; [reflexivity|]. inversion H; subst. cbn [map].
  rewrite print_item_exact by assumption. rewrite IH by assumption. reflexivity.
Qed.

Lemma scan_rules_exact : forall s rest, exact_string s -> scan_rules (s ++ rest) = Some (TString, length s).
Proof.
  intros s rest H. destruct (exact_string_shape s H) as (b & E & K). specialize (K rest).
  rewrite E in K |- * at 1. cbn [app] in *. rewrite scan_rules_cons. change (byte_class 34%N) with BQuote.
  rewrite K, E. reflexivity.
Qed.

Lemma next_token_skip : forall pos ws c l k n,
  forallb is_space ws = true -> is_space c = false -> scan_rules (c :: l) = Some (k, n) ->
  next_token pos (ws ++ c :: l) = LTok (mkTok k (firstn n (c :: l)) (pos + length ws)) (skipn n (c :: l)).
Proof.
  intros pos ws c l k n Hw Hs Hr. unfold next_token.
  destruct (take_drop_stop is_space ws (c :: l) Hw Hs) as (T & D). rewrite T, D, Hr. reflexivity.
Qed.

Lemma next_token_nonspace : forall pos c l k n,
  is_space c = false -> scan_rules (c :: l) = Some (k, n) ->
  next_token pos (c :: l) = LTok (mkTok k (firstn n (c :: l)) pos) (skipn n (c :: l)).
Proof.
  intros pos c l k n Hs Hr. rewrite <- (Nat.add_0_r pos) at 2. exact (next_token_skip pos [] c l k n eq_refl Hs Hr).
Qed.

Lemma next_token_exact_ws : forall pos ws s rest,
  forallb is_space ws = true -> exact_string s ->
  next_token pos (ws ++ s ++ rest) = LTok (mkTok TString s (pos + length ws)) rest.
Proof.
  intros pos ws s rest Hw H. pose proof (scan_rules_exact s rest H) as Hr.
  destruct (exact_string_shape s H) as (b & E & _).
  assert (Ht : s ++ rest = 34%N :: (b ++ [34%N]) ++ rest) by (rewrite E; reflexivity).
  rewrite Ht in Hr |- *. rewrite (next_token_skip pos ws 34%N _ _ _ Hw eq_refl Hr), <- Ht, firstn_length_app, skipn_length_app.
  reflexivity.
Qed.

Theorem next_token_exact : forall pos s rest,
  exact_string s -> next_token pos (s ++ rest) = LTok (mkTok TString s pos) rest.
Proof.
  intros pos s rest H. rewrite <- (Nat.add_0_r pos) at 2. exact (next_token_exact_ws pos [] s rest eq_refl H).
Qed.

(* the blank is what the printer writes between list items and before values *)
Theorem next_token_exact_sp : forall pos s rest,
  exact_string s -> next_token pos (32%N :: s ++ rest) = LTok (mkTok TString s (S pos)) rest.
Proof.
  intros pos s rest H. rewrite <- (Nat.add_1_r pos). exact (next_token_exact_ws pos [32%N] s rest eq_refl H).
Qed.

Lemma next_token_char : forall pos c k rest,
  is_space c = false -> scan_rules (c :: rest) = Some (k, 1) ->
  next_token pos (c :: rest) = LTok (mkTok k [c] pos) rest.
Proof. intros pos c k rest Hs Hr. exact (next_token_nonspace pos c rest k 1 Hs Hr). Qed.

Fixpoint next_n (n : nat) (pos : nat) (l : bytes) : option (list (tkind * bytes) * bytes) :=
  match n with
  | O => Some ([], l)
  | S k =>
      match next_token pos l with
      | LTok t rest =>
          match next_n k (t_pos t + length (t_val t)) rest with
          | Some (ts, r) => Some ((t_kind t, t_val t) :: ts, r)
          | None => None
          end
      | _ => None
      end
  end.

Fixpoint commas (items : list bytes) : list (tkind * bytes) :=
  match items with
  | [] => []
  | [x] => [(TString, x)]
  | x :: t => (TString, x) :: (TComma, [44%N]) :: commas t
  end.

Lemma join_cons_ne : forall sep x (l : list bytes), l <> [] -> join sep (x :: l) = x ++ sep ++ join sep l.
Proof. intros sep x [|y t] H; [congruence|reflexivity]. Qed.

Lemma commas_cons_ne : forall x l, l <> [] -> commas (x :: l) = (TString, x) :: (TComma, [44%N]) :: commas l.
Proof. intros x [|y t] H; [congruence|reflexivity]. Qed.

Lemma next_n_S : forall k pos l,
  next_n (S k) pos l =
  match next_token pos l with
  | LTok t rest =>
      match next_n k (t_pos t + length (t_val t)) rest with
      | Some (ts, r) => Some ((t_kind t, t_val t) :: ts, r)
      | None => None
      end
  | _ => None
  end.
Proof. reflexivity. Qed.

Lemma next_n_items_ws : forall sw items w pos rest,
  forallb is_space sw = true -> forallb is_space w = true -> items <> [] -> Forall exact_string items ->
  next_n (2 * length items) pos (w ++ join (44%N :: sw) items ++ 93%N :: rest) =
  Some (commas items ++ [(TRightBracket, [93%N])], rest).
Proof.
  intros sw. induction items as [|s t IH]; intros w pos rest Hsw Hw Hne Hall; [congruence|].
  inversion Hall as [|s' t' Hs Ht]; subst.
  replace (2 * length (s :: t)) with (S (S (2 * length t))) by (cbn [length]; lia).
  rewrite next_n_S. destruct t as [|s2 t2].
  - cbn [join]. rewrite (next_token_exact_ws pos w s _ Hw Hs). cbn [t_pos t_val t_kind].
    rewrite next_n_S, (next_token_char _ 93%N TRightBracket rest); reflexivity.
  - assert (Hne' : s2 :: t2 <> []) by discriminate.
    rewrite (join_cons_ne _ _ _ Hne'), (commas_cons_ne _ _ Hne'), <- !app_assoc.
    rewrite (next_token_exact_ws pos w s _ Hw Hs). cbn [t_pos t_val t_kind app].
    rewrite next_n_S, (next_token_char _ 44%N TComma); [|reflexivity|reflexivity]. cbn [t_pos t_val t_kind].
    rewrite (IH sw _ rest Hsw Hsw Hne' Ht). reflexivity.
Qed.

Lemma next_n_items : forall items pos rest,
  items <> [] -> Forall exact_string items ->
  next_n (2 * length items) pos (join [44%N; 32%N] items ++ 93%N :: rest) =
  Some (commas items ++ [(TRightBracket, [93%N])], rest).
Proof. intros items pos rest. exact (next_n_items_ws [32%N] items [] pos rest eq_refl eq_refl). Qed.

(* a printed list of string tokens is lexed back as '[' items separated by ',' ']', whatever the items
   contain (escaped quotes, backslashes, brackets, commas, newlines, non-ASCII) and whatever follows *)
Theorem printed_list_lexes_back : forall items pos rest,
  items <> [] -> Forall exact_string items ->
  next_n (2 * length items + 1) pos (print_items items ++ rest) =
  Some ((TLeftBracket, [91%N]) :: commas items ++ [(TRightBracket, [93%N])], rest).
Proof.
  intros items pos rest Hne Hall. unfold print_items.
  rewrite (map_print_item_exact items Hall), Nat.add_1_r, next_n_S. cbn [app].
  rewrite (next_token_char _ 91%N TLeftBracket); [|reflexivity|reflexivity].
  cbn [t_pos t_val t_kind length]. rewrite <- app_assoc. cbn [app].
  rewrite next_n_items by assumption. reflexivity.
Qed.

(* non-vacuity: hostile contents *)
Example exact_examples :
  Forall exact_string [bs """a\""b"""; bs """back\\slash"""; bs """[x], """; bs """two" ++ [10%N] ++ bs "lines"""; bs """"""].
Proof. repeat constructor; vm_compute; reflexivity. Qed.

Print Assumptions lexed_strings_exact.
Print Assumptions print_item_exact.
Print Assumptions next_token_exact.
Print Assumptions printed_list_lexes_back.

(* quoting inserts ASCII bytes at character boundaries only *)
Definition special (b : N) : bool := N.eqb b 92 || N.eqb b 34.

Lemma special_ascii : forall b, special b = true -> N.ltb b 128 = true.
Proof. intros b H. apply orb_true_iff in H as [E|E]; apply N.eqb_eq in E; subst b; reflexivity. Qed.

Lemma cont_not_special : forall lo hi b, in_rng lo hi b = true -> (128 <=? lo)%N = true -> special b = false.
Proof.
  intros lo hi b H Hlo. destruct (special b) eqn:E; [|reflexivity]. apply special_ascii, N.ltb_lt in E.
  unfold in_rng in H. apply andb_true_iff in H as [H1 _]. apply N.leb_le in Hlo, H1. lia.
Qed.

Lemma escape_pre : forall pre t, Forall (fun b => special b = false) pre -> escape_q (pre ++ t) = pre ++ escape_q t.
Proof. induction 1 as [|b pre Hb _ IH]; [reflexivity|]. cbn [app]. rewrite escape_q_cons. fold (special b). rewrite Hb, IH. reflexivity. Qed.

Lemma utf8_app_ascii : forall c t, N.ltb c 128 = true -> utf8_valid (c :: t) = utf8_valid t.
Proof. intros c t H. cbn [utf8_valid]. rewrite H. reflexivity. Qed.

(* the first four of the five facts about a character, from the checks made of its bytes *)
Ltac char_done C Sa Ht :=
  split; [reflexivity|split; [exact Ht|split; [|split; [intro; apply Sa; assumption|]]]];
  [repeat (apply Forall_cons; [eapply C; [eassumption|reflexivity]|]); apply Forall_nil|].

(* a valid text begins with one character: its first byte [a], continuation bytes [pre] that are no ASCII bytes,
   and whether the whole is valid depends on the rest alone *)
Lemma utf8_cons : forall a t, utf8_valid (a :: t) = true ->
  exists pre t', t = pre ++ t' /\ utf8_valid t' = true /\ Forall (fun b => special b = false) pre /\
                 (special a = true -> pre = []) /\ forall t'', utf8_valid (a :: pre ++ t'') = utf8_valid t''.
Proof.
  intros a t H. pose proof cont_not_special as C. cbn [utf8_valid] in H. destruct (N.ltb a 128) eqn:Ea.
  { exists [], t. repeat split; auto. intro t''. apply utf8_app_ascii, Ea. }
  assert (Sa : special a = true -> forall pre : bytes, pre = []).
  { intro S. apply special_ascii in S. congruence. }
  destruct (in_rng 194 223 a) eqn:E1.
  { destruct t as [|b t1]; [discriminate|]. apply andb_true_iff in H as [Hb Ht]. exists [b], t1.
    char_done C Sa Ht. intro t''. cbn [app utf8_valid]. rewrite Ea, E1, Hb. reflexivity. }
  destruct (N.eqb a 224) eqn:E2.
  { destruct t as [|b [|c t2]]; try discriminate. apply andb_true_iff in H as [H Ht]. apply andb_true_iff in H as [Hb Hc].
    exists [b; c], t2. char_done C Sa Ht. intro t''. cbn [app utf8_valid]. rewrite Ea, E1, E2, Hb, Hc. reflexivity. }
  destruct (in_rng 225 236 a || in_rng 238 239 a) eqn:E3.
  { destruct t as [|b [|c t2]]; try discriminate. apply andb_true_iff in H as [H Ht]. apply andb_true_iff in H as [Hb Hc].
    exists [b; c], t2. char_done C Sa Ht. intro t''. cbn [app utf8_valid]. rewrite Ea, E1, E2, E3, Hb, Hc. reflexivity. }
  destruct (N.eqb a 237) eqn:E4.
  { destruct t as [|b [|c t2]]; try discriminate. apply andb_true_iff in H as [H Ht]. apply andb_true_iff in H as [Hb Hc].
    exists [b; c], t2. char_done C Sa Ht. intro t''. cbn [app utf8_valid]. rewrite Ea, E1, E2, E3, E4, Hb, Hc. reflexivity. }
  destruct (N.eqb a 240) eqn:E5.
  { destruct t as [|b [|c [|d t3]]]; try discriminate. apply andb_true_iff in H as [H Ht]. apply andb_true_iff in H as [H Hd].
    apply andb_true_iff in H as [Hb Hc]. exists [b; c; d], t3.
    char_done C Sa Ht. intro t''. cbn [app utf8_valid]. rewrite Ea, E1, E2, E3, E4, E5, Hb, Hc, Hd. reflexivity. }
  destruct (in_rng 241 243 a) eqn:E6.
  { destruct t as [|b [|c [|d t3]]]; try discriminate. apply andb_true_iff in H as [H Ht]. apply andb_true_iff in H as [H Hd].
    apply andb_true_iff in H as [Hb Hc]. exists [b; c; d], t3.
    char_done C Sa Ht. intro t''. cbn [app utf8_valid]. rewrite Ea, E1, E2, E3, E4, E5, E6, Hb, Hc, Hd. reflexivity. }
  destruct (N.eqb a 244) eqn:E7; [|discriminate].
  destruct t as [|b [|c [|d t3]]]; try discriminate. apply andb_true_iff in H as [H Ht]. apply andb_true_iff in H as [H Hd].
  apply andb_true_iff in H as [Hb Hc]. exists [b; c; d], t3.
  char_done C Sa Ht. intro t''. cbn [app utf8_valid]. rewrite Ea, E1, E2, E3, E4, E5, E6, E7, Hb, Hc, Hd. reflexivity.
Qed.

Lemma utf8_ind : forall P : bytes -> Prop,
  P [] ->
  (forall a pre t, Forall (fun b => special b = false) pre -> (special a = true -> pre = []) ->
                   (forall t'', utf8_valid (a :: pre ++ t'') = utf8_valid t'') -> P t -> P (a :: pre ++ t)) ->
  forall v, utf8_valid v = true -> P v.
Proof.
  intros P H0 Hs v. remember (length v) as n eqn:Hn. revert v Hn. induction n as [n IH] using lt_wf_ind. intros v -> H.
  destruct v as [|a t]; [exact H0|]. destruct (utf8_cons a t H) as (pre & t' & -> & Ht & Sp & Sa & Q).
  apply Hs; try assumption. apply (IH (length t')); [cbn [length]; rewrite app_length; lia|reflexivity|exact Ht].
Qed.

Lemma utf8_escape : forall v, utf8_valid v = true -> utf8_valid (escape_q v) = true.
Proof.
  apply utf8_ind; [reflexivity|]. intros a pre t Sp Sa Q IH. rewrite escape_q_cons, (escape_pre pre t Sp). fold (special a).
  destruct (special a) eqn:E; [|rewrite Q; exact IH].
  rewrite (Sa eq_refl), utf8_app_ascii, utf8_app_ascii; [exact IH|apply special_ascii, E|reflexivity].
Qed.

Lemma utf8_snoc_ascii : forall c v, N.ltb c 128 = true -> utf8_valid v = true -> utf8_valid (v ++ [c]) = true.
Proof.
  intros c v Hc. revert v. apply utf8_ind; [apply (utf8_app_ascii c [] Hc)|].
  intros a pre t _ _ Q IH. cbn [app]. rewrite <- app_assoc, Q. exact IH.
Qed.

Lemma utf8_quote : forall v, utf8_valid v = true -> utf8_valid (quote v) = true.
Proof.
  intros v H. unfold quote. rewrite utf8_app_ascii by reflexivity. apply utf8_snoc_ascii; [reflexivity|apply utf8_escape, H].
Qed.
