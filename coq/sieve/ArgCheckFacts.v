(* ArgCheckFacts.v — the table interpreter check_next_arg / iscomplete (ArgCheck.v) implements
   the argument language `legal` (ArgSpec.v) for well-formed definitions: it accepts exactly the
   uses the argument definition allows, rejects the others with the specified error, and records
   the arguments under the defined names (heart of C01 / C03 / C20).

   Why fixed_arity: wf_def d = true does not constrain d_variable_args_nb when d_args d = [], and
   Command.iscomplete answers False for any class with variable_args_nb set.  For such a
   (hypothetical) definition `legal d loaded []` is LComplete [] [] while iscomplete is false
   (counterexample_noargs_variable).  The theorems therefore carry the boolean hypothesis
   fixed_arity d = true (has_arguments d || negb (d_variable_args_nb d)); it is the weakest one:
   under wf_def it is equivalent to d_variable_args_nb d = false (fixed_arity_iff), it is necessary
   (fixed_arity_necessary), and it holds for every command of gen_tables inside wf_def. *)
From Coq Require Import String.
From Coq Require Import List NArith Bool Arith Lia.
From SV Require Import Bytes BytesFacts Lexer Tables ArgCheck ArgSpec MachineFacts GenTables.
Import ListNotations.
Local Open Scope nat_scope.

Lemma mem_tag_string : atype_mem TyString [TyTag] = false. Proof. reflexivity. Qed.
Lemma mem_tag_number : atype_mem TyNumber [TyTag] = false. Proof. reflexivity. Qed.
Lemma mem_tag_stringlist : atype_mem TyStringList [TyTag] = false. Proof. reflexivity. Qed.
Lemma mem_tag_tag : atype_mem TyTag [TyTag] = true. Proof. reflexivity. Qed.
Lemma valid_type_stringlist_tag : is_valid_type TyStringList [TyTag] = false. Proof. reflexivity. Qed.

Lemma not_testlist {A} (l : list atype) (X Y : A) :
  forallb simple_type l = true ->
  match l with [TyTestList] => X | _ => Y end = Y.
Proof. destruct l as [|[] [|]]; cbn; intros; try reflexivity; discriminate. Qed.

Lemma skipn_S_cons {A} : forall n (l : list A) a r, skipn n l = a :: r -> skipn (S n) l = r.
Proof.
  induction n as [|n IH]; intros [|x l] a r H; cbn in *; try discriminate.
  - now inversion H.
  - exact (IH l a r H).
Qed.

Lemma opt_slot_ok_inv s :
  opt_slot_ok s = true -> a_required s = false /\ a_type s = [TyTag].
Proof.
  unfold opt_slot_ok, is_tag_only. intros H.
  apply andb_prop in H as [H _]. apply andb_prop in H as [H1 H2].
  split; [destruct (a_required s); cbn in H1; congruence|].
  destruct (a_type s) as [|[] [|]]; try discriminate; reflexivity.
Qed.

Lemma req_slot_ok_inv r :
  req_slot_ok r = true ->
  a_required r = true /\ forallb simple_type (a_type r) = true /\ a_extra r = None /\
  (has_value_test r = true -> a_type r = [TyTag]).
Proof.
  unfold req_slot_ok. intros H.
  apply andb_prop in H as [H H4]. apply andb_prop in H as [H H3]. apply andb_prop in H as [H1 H2].
  split; [exact H1|]. split; [exact H2|]. split; [destruct (a_extra r); congruence|].
  intros Hv. rewrite Hv in H4. destruct (atype_mem TyTag (a_type r)); [|discriminate].
  rewrite andb_true_r in H4. unfold is_tag_only in H4.
  destruct (a_type r) as [|[] [|]]; try discriminate; reflexivity.
Qed.

Lemma split_opts_app : forall l o r, split_opts l = (o, r) -> l = o ++ r.
Proof.
  induction l as [|a t IH]; intros o r H; cbn in H.
  - inversion H; reflexivity.
  - destruct (a_required a).
    + inversion H; reflexivity.
    + destruct (split_opts t) as [o' r'] eqn:Hs. inversion H; subst. cbn. f_equal. now apply IH.
Qed.

Lemma filter_opts : forall os, forallb opt_slot_ok os = true ->
  filter a_required os = [] /\ filter (fun a => negb (a_required a)) os = os.
Proof.
  induction os as [|s os IH]; cbn; intros H; [auto|].
  apply andb_prop in H as [H1 H2]. destruct (opt_slot_ok_inv _ H1) as (Hr & _). destruct (IH H2) as (I1 & I2).
  rewrite Hr. cbn. rewrite I2. auto.
Qed.

Lemma filter_reqs : forall rs, forallb req_slot_ok rs = true ->
  filter a_required rs = rs /\ filter (fun a => negb (a_required a)) rs = [].
Proof.
  induction rs as [|s rs IH]; cbn; intros H; [auto|].
  apply andb_prop in H as [H1 H2]. destruct (req_slot_ok_inv _ H1) as (Hr & _). destruct (IH H2) as (I1 & I2).
  rewrite Hr. cbn. rewrite I1. auto.
Qed.

Lemma wf_def_struct d :
  wf_def d = true -> d_args d <> [] ->
  exists opts reqs,
    d_args d = opts ++ reqs /\ forallb opt_slot_ok opts = true /\ forallb req_slot_ok reqs = true /\
    reqs <> [] /\ d_variable_args_nb d = false /\ opt_slots d = opts /\ req_slots d = reqs.
Proof.
  unfold wf_def, opt_slots, req_slots. intros H Hne.
  destruct (d_args d) as [|a l] eqn:E; [congruence|].
  destruct (split_opts (a :: l)) as [o r] eqn:Hs.
  apply andb_prop in H as [H H4]. apply andb_prop in H as [H H3]. apply andb_prop in H as [H1 H2].
  exists o, r. rewrite (split_opts_app _ _ _ Hs).
  repeat split; auto.
  - intros ->. discriminate.
  - destruct (d_variable_args_nb d); [discriminate|reflexivity].
  - rewrite filter_app, (proj2 (filter_opts _ H2)), (proj2 (filter_reqs _ H3)). apply app_nil_r.
  - rewrite filter_app, (proj1 (filter_opts _ H2)), (proj1 (filter_reqs _ H3)). reflexivity.
Qed.

Lemma ivv_str s v loaded :
  is_valid_value s (VStr v) true loaded =
  match slot_selects s v loaded with
  | SelYes => VTrue
  | SelNo => VFalse
  | SelExt e => VRaise (EExtNotLoaded e)
  end.
Proof.
  unfold is_valid_value, slot_selects.
  destruct (a_values s) as [l|], (a_extension_values s) as [m|]; try reflexivity.
  - destruct (mem (lower v) l); [reflexivity|].
    destruct (assoc_get (lower v) m) as [[|c e]|]; try reflexivity.
    cbn [andb]. destruct (mem (c :: e) loaded); reflexivity.
  - destruct (mem (lower v) l); reflexivity.
  - destruct (assoc_get (lower v) m) as [[|c e]|]; try reflexivity.
    cbn [andb]. destruct (mem (c :: e) loaded); reflexivity.
Qed.

Lemma find_opt_sound : forall os v loaded s r,
  find_opt os v loaded = Some (s, r) -> r <> SelNo /\ In s os.
Proof.
  induction os as [|x os IH]; cbn; intros v loaded s r H; [discriminate|].
  destruct (slot_selects x v loaded) eqn:Hx.
  - inversion H; subst. split; [discriminate|auto].
  - destruct (IH _ _ _ _ H); auto.
  - inversion H; subst. split; [discriminate|auto].
Qed.

Lemma takes_param_bool s v :
  match a_extra s with
  | None => false
  | Some ex => match ex_valid_for ex with None => true | Some vf => mem (lower v) vf end
  end = match takes_param s v with Some _ => true | None => false end.
Proof.
  unfold takes_param. destruct (a_extra s) as [ex|]; [|reflexivity].
  destruct (ex_valid_for ex) as [vf|]; [|reflexivity]. destruct (mem (lower v) vf); reflexivity.
Qed.

Lemma takes_param_extra s v ex : takes_param s v = Some ex -> a_extra s = Some ex.
Proof.
  unfold takes_param. destruct (a_extra s) as [ex'|]; [|discriminate].
  destruct (ex_valid_for ex') as [vf|]; [destruct (mem (lower v) vf)|]; congruence.
Qed.

(* ArgSpec.legal_opt writes this continuation twice, once in each branch of its match on a_extension s *)
Definition tag_cont (f : nat) (opts reqs : list argdef) (s : argdef) (v : bytes) (rest : list argument)
           (L : list bytes) (am em : list (bytes * aval)) : lres :=
  let am' := assoc_set (a_name s) (VStr v) am in
  let em' := assoc_del (a_name s) em in
  match takes_param s v with
  | None => legal_opt f opts reqs rest L am' em'
  | Some ex =>
      match rest with
      | [] => LIncomplete am' em'
      | p :: rest' =>
          if param_ok ex p then legal_opt f opts reqs rest' L am' (assoc_set (a_name s) (snd p) em')
          else LReject (Some EBadValue)
      end
  end.

Lemma legal_opt_tag : forall f opts reqs s v rest L am em,
  find_opt opts v L = Some (s, SelYes) ->
  match a_extension s with Some (c :: e) => mem (c :: e) L = true | _ => True end ->
  legal_opt (S f) opts reqs ((TyTag, VStr v) :: rest) L am em = tag_cont f opts reqs s v rest L am em.
Proof.
  intros f opts reqs s v rest L am em Hf He. cbn [legal_opt]. rewrite Hf.
  destruct (a_extension s) as [[|c e]|]; try reflexivity. rewrite He. reflexivity.
Qed.

Definition opt_frame (f : frame) (s : argdef) (v : bytes) : frame :=
  del_extra (set_arg (match takes_param s v with Some _ => set_curarg f (Some s) | None => f end)
                     (a_name s) (VStr v)) (a_name s).

Definition opt_result (f : frame) (s : argdef) (v : bytes) (loaded : list bytes) : cna :=
  match a_extension s with
  | Some (c :: e) => if mem (c :: e) loaded then CnaOk (opt_frame f s v) (Some s)
                     else CnaErr (EExtNotLoaded (c :: e))
  | _ => CnaOk (opt_frame f s v) (Some s)
  end.

Lemma scan_opt_tag s rest f pos v loaded :
  opt_slot_ok s = true ->
  cna_scan f (s :: rest) pos TyTag (VStr v) true true loaded =
  match slot_selects s v loaded with
  | SelNo => cna_scan f rest (S pos) TyTag (VStr v) true true loaded
  | SelExt e => CnaErr (EExtNotLoaded e)
  | SelYes => opt_result f s v loaded
  end.
Proof.
  intros Hok. destruct (opt_slot_ok_inv _ Hok) as (Hr & Hty).
  cbn [cna_scan]. rewrite Hr, Hty, mem_tag_tag, ivv_str.
  destruct (slot_selects s v loaded); try reflexivity.
  unfold opt_result, opt_frame. rewrite takes_param_bool.
  destruct (a_extension s) as [[|c e]|]; cbn [andb].
  - destruct (takes_param s v); reflexivity.
  - destruct (mem (c :: e) loaded); cbn [negb]; [|reflexivity].
    destruct (takes_param s v); reflexivity.
  - destruct (takes_param s v); reflexivity.
Qed.

Lemma scan_opt_nontag s rest f pos t v loaded :
  opt_slot_ok s = true -> atype_mem t [TyTag] = false ->
  cna_scan f (s :: rest) pos t v true true loaded = cna_scan f rest (S pos) t v true true loaded.
Proof.
  intros Hok Ht. destruct (opt_slot_ok_inv _ Hok) as (Hr & Hty).
  cbn [cna_scan]. rewrite Hr, Hty, Ht. reflexivity.
Qed.

Lemma scan_opts_tag : forall os f pos v rest loaded,
  forallb opt_slot_ok os = true ->
  cna_scan f (os ++ rest) pos TyTag (VStr v) true true loaded =
  match find_opt os v loaded with
  | None => cna_scan f rest (pos + length os) TyTag (VStr v) true true loaded
  | Some (s, SelYes) => opt_result f s v loaded
  | Some (s, SelExt e) => CnaErr (EExtNotLoaded e)
  | Some (s, SelNo) => CnaCrash     (* never: find_opt_sound *)
  end.
Proof.
  induction os as [|s os IH]; intros f pos v rest loaded H.
  - cbn. now rewrite Nat.add_0_r.
  - cbn [forallb] in H. apply andb_prop in H as [H1 H2].
    cbn [app]. rewrite (scan_opt_tag _ _ _ _ _ _ H1). cbn [find_opt].
    destruct (slot_selects s v loaded); try reflexivity.
    rewrite (IH _ _ _ _ _ H2). cbn [length]. now rewrite Nat.add_succ_r.
Qed.

Lemma scan_opts_nontag : forall os f pos t v rest loaded,
  forallb opt_slot_ok os = true -> atype_mem t [TyTag] = false ->
  cna_scan f (os ++ rest) pos t v true true loaded =
  cna_scan f rest (pos + length os) t v true true loaded.
Proof.
  induction os as [|s os IH]; intros f pos t v rest loaded H Ht.
  - cbn. now rewrite Nat.add_0_r.
  - cbn [forallb] in H. apply andb_prop in H as [H1 H2].
    cbn [app]. rewrite (scan_opt_nontag _ _ _ _ _ _ _ H1 Ht), (IH _ _ _ _ _ _ H2 Ht).
    cbn [length]. now rewrite Nat.add_succ_r.
Qed.

Definition req_frame (f : frame) (r : argdef) (pos : nat) (v : aval) : frame :=
  set_arg (set_counters (set_curarg f (Some r)) (S pos) (S (f_rargs f))) (a_name r) v.

Lemma scan_req r rest f pos t v loaded :
  req_slot_ok r = true -> arg_shape_ok (t, v) = true ->
  cna_scan f (r :: rest) pos t v true true loaded =
  match req_ok r (t, v) loaded with
  | SelYes => CnaOk (req_frame f r pos v) (Some r)
  | SelExt e => CnaErr (EExtNotLoaded e)
  | SelNo => CnaErr EBadArgument
  end.
Proof.
  intros Hok Hsh. destruct (req_slot_ok_inv _ Hok) as (Hr & Hsimple & Hex & Htag).
  cbn [cna_scan]. rewrite Hr, (not_testlist _ _ _ Hsimple).
  unfold req_ok. cbn [fst snd].
  destruct (is_valid_type t (a_type r)) eqn:Hvt; cbn [negb]; [|reflexivity].
  destruct v as [s|vs|n|ns].
  - rewrite ivv_str. destruct (slot_selects r s loaded); reflexivity.
  - assert (Ht : t = TyStringList) by (destruct t; cbn in Hsh; congruence). subst t.
    unfold is_valid_value.
    destruct (a_values r) as [l|] eqn:E1, (a_extension_values r) as [m|] eqn:E2; try reflexivity;
      exfalso; (assert (Hv : has_value_test r = true) by (unfold has_value_test; rewrite E1, ?E2; reflexivity));
      rewrite (Htag Hv), valid_type_stringlist_tag in Hvt; discriminate.
  - destruct t; discriminate.
  - destruct t; discriminate.
Qed.

(* the verdict of the specification against the outcome of feeding the interpreter: same completeness, same maps,
   same error *)
Definition corr (r : lres) (x : fres) : Prop :=
  match r with
  | LComplete am em => exists f, x = FOk f /\ iscomplete f None = true /\ f_args f = am /\ f_extra f = em
  | LIncomplete am em => exists f, x = FOk f /\ iscomplete f None = false /\ f_args f = am /\ f_extra f = em
  | LReject e => x = FStop e
  end.

Lemma feed_cons f t v args loaded :
  feed f ((t, v) :: args) loaded =
  match check_next_arg f t v true true loaded with
  | CnaOk f' _ => feed f' args loaded
  | CnaFalse => FStop None
  | CnaErr e => FStop (Some e)
  | CnaCrash => FCrash
  end.
Proof. reflexivity. Qed.

Section Correct.
  Variables (d : cmddef) (loaded : list bytes) (opts reqs : list argdef).
  Hypothesis Hargs : d_args d = opts ++ reqs.
  Hypothesis Hopts : forallb opt_slot_ok opts = true.
  Hypothesis Hreqs : forallb req_slot_ok reqs = true.
  Hypothesis Hne : reqs <> [].
  Hypothesis Hvar : d_variable_args_nb d = false.

  Lemma required_args_d : required_args d = length reqs.
  Proof.
    unfold required_args. rewrite Hargs, filter_app, (proj1 (filter_opts _ Hopts)), (proj1 (filter_reqs _ Hreqs)).
    reflexivity.
  Qed.

  Lemma has_args_d : has_arguments d = true.
  Proof.
    unfold has_arguments. rewrite Hargs. destruct opts; [|reflexivity].
    destruct reqs; [congruence|reflexivity].
  Qed.

  Lemma reqs_pos : 0 < length reqs.
  Proof. destruct reqs; [congruence|cbn; lia]. Qed.

  Definition noextra (f : frame) : Prop :=
    match f_curarg f with None => True | Some c => a_extra c = None end.

  Lemma iscomplete_noextra f arg :
    f_def f = d -> noextra f -> iscomplete f arg = Nat.eqb (f_rargs f) (length reqs).
  Proof.
    unfold iscomplete, noextra. intros Hd. rewrite Hd, Hvar, required_args_d.
    destruct (f_curarg f) as [c|]; [intros ->|intros _]; reflexivity.
  Qed.

  Lemma iscomplete_lt f arg :
    f_def f = d -> f_rargs f < length reqs -> iscomplete f arg = false.
  Proof.
    unfold iscomplete. intros Hd Hlt. rewrite Hd, Hvar, required_args_d.
    replace (Nat.eqb (f_rargs f) (length reqs)) with false by (symmetry; apply Nat.eqb_neq; lia).
    apply andb_false_r.
  Qed.

  Lemma cna_noextra f t v :
    f_def f = d -> noextra f -> f_rargs f < length reqs ->
    check_next_arg f t v true true loaded =
    cna_scan f (skipn (f_nextargpos f) (opts ++ reqs)) (f_nextargpos f) t v true true loaded.
  Proof.
    intros Hd Hn Hlt. unfold check_next_arg. rewrite (iscomplete_lt _ _ Hd Hlt).
    rewrite Hd, has_args_d, Hargs. cbn [negb]. unfold noextra in Hn.
    destruct (f_curarg f) as [c|]; [rewrite Hn|]; reflexivity.
  Qed.

  Lemma cna_done f t v :
    f_def f = d -> noextra f -> f_rargs f = length reqs ->
    check_next_arg f t v true true loaded = CnaFalse.
  Proof.
    intros Hd Hn He. unfold check_next_arg. rewrite (iscomplete_noextra _ _ Hd Hn), He, Nat.eqb_refl.
    rewrite Hd, has_args_d. reflexivity.
  Qed.

  Lemma cna_param f s ex t v :
    f_def f = d -> f_rargs f < length reqs -> f_curarg f = Some s -> a_extra s = Some ex ->
    check_next_arg f t v true true loaded =
    if param_ok ex (t, v) then CnaOk (set_curarg (set_extra f (a_name s) v) None) None
    else CnaErr EBadValue.
  Proof.
    intros Hd Hlt Hc Hex. unfold check_next_arg. rewrite (iscomplete_lt _ _ Hd Hlt).
    rewrite Hd, has_args_d, Hc, Hex. reflexivity.
  Qed.

  (* the scan equation is asked for the first argument only: for the later ones it follows, from the slot after
     the one just filled *)
  Lemma legal_req_correct : forall rest args f pos,
    f_def f = d -> noextra f -> forallb req_slot_ok rest = true ->
    f_rargs f + length rest = length reqs ->
    skipn pos (opts ++ reqs) = rest ->
    (forall t v args', args = (t, v) :: args' -> rest <> [] ->
       check_next_arg f t v true true loaded = cna_scan f rest pos t v true true loaded) ->
    Forall (fun a => arg_shape_ok a = true) args ->
    corr (legal_req rest args loaded (f_args f) (f_extra f)) (feed f args loaded).
  Proof.
    induction rest as [|r rest IH]; intros args f pos Hd Hn Hok Hlen Hskip Hcna Hsh.
    - cbn [length] in Hlen. rewrite Nat.add_0_r in Hlen.
      destruct args as [|[t v] args]; cbn [legal_req corr].
      + exists f. repeat split. rewrite (iscomplete_noextra _ _ Hd Hn), Hlen. apply Nat.eqb_refl.
      + rewrite feed_cons, (cna_done _ _ _ Hd Hn Hlen). reflexivity.
    - cbn [length] in Hlen. cbn [forallb] in Hok. apply andb_prop in Hok as [Hr Hok].
      assert (Hlt : f_rargs f < length reqs) by lia.
      destruct args as [|[t v] args]; cbn [legal_req corr].
      + exists f. repeat split. apply (iscomplete_lt _ _ Hd Hlt).
      + pose proof (Forall_inv Hsh) as Ha; pose proof (Forall_inv_tail Hsh) as Hsh'; cbv beta in Ha.
        rewrite feed_cons, (Hcna t v args eq_refl ltac:(discriminate)), (scan_req _ _ _ _ _ _ _ Hr Ha).
        destruct (req_ok r (t, v) loaded); cbn [corr]; try reflexivity.
        set (f' := req_frame f r pos v).
        change (corr (legal_req rest args loaded (f_args f') (f_extra f')) (feed f' args loaded)).
        assert (Hn' : noextra f') by (unfold noextra; cbn; apply (req_slot_ok_inv _ Hr)).
        assert (Hskip' : skipn (S pos) (opts ++ reqs) = rest) by apply (skipn_S_cons _ _ _ _ Hskip).
        apply (IH args f' (S pos)); auto.
        * cbn. lia.
        * intros t' v' args' _ Hnil. rewrite (cna_noextra f' t' v' Hd Hn'); [cbn [f' req_frame f_nextargpos set_arg set_counters]; rewrite Hskip'; reflexivity|].
          cbn. destruct rest; [congruence|cbn in Hlen; lia].
  Qed.

  (* frames reachable in phase 1, between two tag groups *)
  Definition phase1 (f : frame) : Prop :=
    f_def f = d /\ f_nextargpos f = 0 /\ f_rargs f = 0 /\ f_curarg f = None.

  Lemma phase1_noextra f : phase1 f -> noextra f.
  Proof. intros (_ & _ & _ & Hc). unfold noextra. now rewrite Hc. Qed.

  Lemma cna_phase1 f t v :
    phase1 f ->
    check_next_arg f t v true true loaded = cna_scan f (opts ++ reqs) 0 t v true true loaded.
  Proof.
    intros Hp. pose proof (phase1_noextra _ Hp) as Hn. destruct Hp as (Hd & Hpos & Hra & Hc).
    rewrite (cna_noextra _ _ _ Hd Hn); [|rewrite Hra; apply reqs_pos].
    rewrite Hpos. reflexivity.
  Qed.

  Lemma req_from_phase1 : forall f args,
    phase1 f -> Forall (fun a => arg_shape_ok a = true) args ->
    (forall t v args', args = (t, v) :: args' ->
       cna_scan f (opts ++ reqs) 0 t v true true loaded = cna_scan f reqs (length opts) t v true true loaded) ->
    corr (legal_req reqs args loaded (f_args f) (f_extra f)) (feed f args loaded).
  Proof.
    intros f args Hp Hsh Hscan. pose proof Hp as (Hd & Hpos & Hra & Hc).
    apply (legal_req_correct reqs args f (length opts)); auto.
    - apply phase1_noextra; exact Hp.
    - rewrite Hra. reflexivity.
    - apply skipn_length_app.
    - intros t v args' E _. rewrite (cna_phase1 _ _ _ Hp). apply (Hscan t v args' E).
  Qed.

  (* the first hypothesis is the induction hypothesis of legal_opt_correct *)
  Lemma tag_cont_correct : forall fuel s v args f,
    (forall args f, length args <= fuel -> Forall (fun a => arg_shape_ok a = true) args -> phase1 f ->
       corr (legal_opt fuel opts reqs args loaded (f_args f) (f_extra f)) (feed f args loaded)) ->
    length args <= fuel -> Forall (fun a => arg_shape_ok a = true) args -> phase1 f ->
    corr (tag_cont fuel opts reqs s v args loaded (f_args f) (f_extra f)) (feed (opt_frame f s v) args loaded).
  Proof.
    intros fuel s v args f IH Hlen Hsh (Hd & Hpos & Hra & Hc). pose proof reqs_pos as Hrp.
    unfold tag_cont, opt_frame. cbv zeta. destruct (takes_param s v) as [ex|] eqn:Htp.
    - pose proof (takes_param_extra _ _ _ Htp) as Hex.
      set (f1 := del_extra (set_arg (set_curarg f (Some s)) (a_name s) (VStr v)) (a_name s)).
      assert (Hd1 : f_def f1 = d) by exact Hd.
      assert (Hlt1 : f_rargs f1 < length reqs) by (cbn; lia).
      destruct args as [|[t' v'] args''].
      + cbn [corr feed]. exists f1. repeat split. apply (iscomplete_lt _ _ Hd1 Hlt1).
      + rewrite feed_cons, (cna_param f1 s ex t' v' Hd1 Hlt1 eq_refl Hex).
        destruct (param_ok ex (t', v')); [|reflexivity].
        set (f2 := set_curarg (set_extra f1 (a_name s) v') None).
        change (corr (legal_opt fuel opts reqs args'' loaded (f_args f2) (f_extra f2)) (feed f2 args'' loaded)).
        apply IH; [cbn [length] in Hlen; lia|exact (Forall_inv_tail Hsh)|]. repeat split; auto.
    - set (f1 := del_extra (set_arg f (a_name s) (VStr v)) (a_name s)).
      change (corr (legal_opt fuel opts reqs args loaded (f_args f1) (f_extra f1)) (feed f1 args loaded)).
      apply IH; auto. repeat split; auto.
  Qed.

  Lemma legal_opt_correct : forall fuel args f,
    length args <= fuel -> Forall (fun a => arg_shape_ok a = true) args -> phase1 f ->
    corr (legal_opt fuel opts reqs args loaded (f_args f) (f_extra f)) (feed f args loaded).
  Proof.
    induction fuel as [|fuel IH]; intros args f Hlen Hsh Hp.
    - destruct args; [|cbn in Hlen; lia]. cbn [legal_opt]. apply req_from_phase1; auto. discriminate.
    - destruct args as [|[t v] args].
      + cbn [legal_opt]. apply req_from_phase1; auto. discriminate.
      + cbn [length] in Hlen. pose proof (Forall_inv Hsh) as Ha; pose proof (Forall_inv_tail Hsh) as Hsh'; cbv beta in Ha.
        assert (Hnontag : atype_mem t [TyTag] = false ->
                  legal_opt (S fuel) opts reqs ((t, v) :: args) loaded (f_args f) (f_extra f) =
                  legal_req reqs ((t, v) :: args) loaded (f_args f) (f_extra f) ->
                  corr (legal_opt (S fuel) opts reqs ((t, v) :: args) loaded (f_args f) (f_extra f))
                       (feed f ((t, v) :: args) loaded)).
        { intros Ht ->. apply req_from_phase1; auto. intros t' v' args' E. injection E as <- <- _.
          rewrite (scan_opts_nontag _ _ _ _ _ _ _ Hopts Ht). reflexivity. }
        destruct t; try discriminate Ha; destruct v as [v|vs|n|ns]; try discriminate Ha;
          try (apply Hnontag; reflexivity).
        clear Hnontag.
        pose proof (scan_opts_tag opts f 0 v reqs loaded Hopts) as Hscan. cbn [Nat.add] in Hscan.
        destruct (find_opt opts v loaded) as [[s sel]|] eqn:Hfind.
        2:{ cbn [legal_opt]. rewrite Hfind. apply req_from_phase1; auto. intros t' v' args' E. injection E as <- <- _. exact Hscan. }
        destruct (find_opt_sound _ _ _ _ _ Hfind) as (Hsel & Hin).
        destruct sel as [| |e]; [|congruence|].
        2:{ cbn [legal_opt corr]. rewrite Hfind, feed_cons, (cna_phase1 _ _ _ Hp), Hscan. reflexivity. }
        pose proof (tag_cont_correct fuel s v args f IH ltac:(lia) Hsh' Hp) as Hcont.
        rewrite feed_cons, (cna_phase1 _ _ _ Hp), Hscan. unfold opt_result.
        destruct (a_extension s) as [[|c e]|] eqn:Ex; [| destruct (mem (c :: e) loaded) eqn:Em |].
        1,2,4: rewrite (legal_opt_tag fuel opts reqs s v args loaded _ _ Hfind) by (rewrite Ex; auto); exact Hcont.
        cbn [legal_opt]. rewrite Hfind, Ex, Em. reflexivity.
  Qed.
End Correct.

Definition fixed_arity (d : cmddef) : bool := has_arguments d || negb (d_variable_args_nb d).

Lemma fixed_arity_iff d : wf_def d = true -> (fixed_arity d = true <-> d_variable_args_nb d = false).
Proof.
  intros Hwf. unfold fixed_arity, has_arguments.
  destruct (d_args d) as [|a l] eqn:E.
  - cbn. destruct (d_variable_args_nb d); cbn; split; congruence.
  - assert (Hne : d_args d <> []) by congruence.
    destruct (wf_def_struct d Hwf Hne) as (o & r & _ & _ & _ & _ & Hv & _). rewrite Hv. cbn. tauto.
Qed.

(* [corr (legal d loaded args) (feed (new_frame d a) args loaded)], written out *)
Definition corr_stmt (d : cmddef) (a : attach) (loaded : list bytes) (args : list argument) : Prop :=
  match legal d loaded args with
  | LComplete am em => exists f, feed (new_frame d a) args loaded = FOk f /\ iscomplete f None = true /\ f_args f = am /\ f_extra f = em
  | LIncomplete am em => exists f, feed (new_frame d a) args loaded = FOk f /\ iscomplete f None = false /\ f_args f = am /\ f_extra f = em
  | LReject e => feed (new_frame d a) args loaded = FStop e
  end.

Theorem argcheck_correct_gen : forall d a loaded args,
    wf_def d = true -> fixed_arity d = true -> Forall (fun x => arg_shape_ok x = true) args ->
    corr_stmt d a loaded args.
Proof.
  intros d a loaded args Hwf Hfa Hsh.
  change (corr (legal d loaded args) (feed (new_frame d a) args loaded)).
  destruct (d_args d) as [|x l] eqn:E.
  -
    assert (Hv : d_variable_args_nb d = false).
    { unfold fixed_arity, has_arguments in Hfa. rewrite E in Hfa. cbn in Hfa.
      destruct (d_variable_args_nb d); [discriminate|reflexivity]. }
    unfold legal. rewrite E. destruct args as [|[t v] args]; cbn [corr].
    + exists (new_frame d a). repeat split.
      unfold iscomplete, required_args. cbn. rewrite Hv, E. reflexivity.
    + rewrite feed_cons. unfold check_next_arg, has_arguments. cbn. rewrite E. reflexivity.
  - assert (Hne : d_args d <> []) by congruence.
    destruct (wf_def_struct d Hwf Hne) as (o & r & Hargs & Ho & Hr & Hrne & Hv & Hos & Hrs).
    unfold legal. rewrite E, Hos, Hrs.
    apply (legal_opt_correct d loaded o r Hargs Ho Hr Hrne Hv (length args) args (new_frame d a));
      [lia|exact Hsh|]. repeat split.
Qed.

Theorem argcheck_correct : forall d loaded args,
    wf_def d = true -> fixed_arity d = true -> Forall (fun a => arg_shape_ok a = true) args ->
    match legal d loaded args with
    | LComplete am em => exists f, feed (new_frame d AtTop) args loaded = FOk f /\ iscomplete f None = true /\ f_args f = am /\ f_extra f = em
    | LIncomplete am em => exists f, feed (new_frame d AtTop) args loaded = FOk f /\ iscomplete f None = false /\ f_args f = am /\ f_extra f = em
    | LReject e => feed (new_frame d AtTop) args loaded = FStop e
    end.
Proof. intros d loaded args Hwf Hfa Hsh. exact (argcheck_correct_gen d AtTop loaded args Hwf Hfa Hsh). Qed.

(* FCrash (an AttributeError in the Python code) never happens *)
Corollary feed_never_crashes : forall d a loaded args,
    wf_def d = true -> fixed_arity d = true -> Forall (fun x => arg_shape_ok x = true) args ->
    feed (new_frame d a) args loaded <> FCrash.
Proof.
  intros d a loaded args Hwf Hfa Hsh. pose proof (argcheck_correct_gen d a loaded args Hwf Hfa Hsh) as H.
  unfold corr_stmt in H. destruct (legal d loaded args).
  - destruct H as (f & -> & _). discriminate.
  - destruct H as (f & -> & _). discriminate.
  - rewrite H. discriminate.
Qed.

Corollary accepts_iff_legal : forall d loaded args,
    wf_def d = true -> fixed_arity d = true -> Forall (fun a => arg_shape_ok a = true) args ->
    ((exists f, feed (new_frame d AtTop) args loaded = FOk f /\ iscomplete f None = true)
     <-> (exists am em, legal d loaded args = LComplete am em)).
Proof.
  intros d loaded args Hwf Hfa Hsh. pose proof (argcheck_correct d loaded args Hwf Hfa Hsh) as H.
  destruct (legal d loaded args) as [am em|am em|e].
  - destruct H as (f & Hf & Hc & _). split; intros _; eauto.
  - destruct H as (f & Hf & Hc & _). split.
    + intros (f' & Hf' & Hc'). rewrite Hf in Hf'. inversion Hf'; subst. congruence.
    + intros (am' & em' & H'). discriminate.
  - split.
    + intros (f' & Hf' & _). rewrite H in Hf'. discriminate.
    + intros (am' & em' & H'). discriminate.
Qed.

Definition noargs_variable : cmddef :=
  mkCmd (bs "x") CAction [] false true false None None None HNone RNotImplemented.

Example counterexample_noargs_variable :
  wf_def noargs_variable = true /\ fixed_arity noargs_variable = false /\
  legal noargs_variable [] [] = LComplete [] [] /\
  feed (new_frame noargs_variable AtTop) [] [] = FOk (new_frame noargs_variable AtTop) /\
  iscomplete (new_frame noargs_variable AtTop) None = false.
Proof. vm_compute. repeat split. Qed.

Lemma fixed_arity_necessary d loaded :
  wf_def d = true -> fixed_arity d = false -> ~ corr_stmt d AtTop loaded [].
Proof.
  unfold fixed_arity, has_arguments, corr_stmt, legal. intros _ Hfa.
  destruct (d_args d) eqn:E; [|discriminate]. cbn in Hfa.
  destruct (d_variable_args_nb d) eqn:Hv; [|discriminate].
  intros (f & Hf & Hc & _). cbn in Hf. inversion Hf; subst.
  unfold iscomplete in Hc. cbn in Hc. rewrite Hv in Hc. discriminate.
Qed.

Example gen_tables_wf_commands :
  map fst (filter (fun kd => wf_def (snd kd)) gen_tables) =
  [bs "address"; bs "body"; bs "currentdate"; bs "date"; bs "discard"; bs "else"; bs "envelope";
   bs "exists"; bs "false"; bs "fileinto"; bs "header"; bs "redirect"; bs "reject"; bs "require";
   bs "set"; bs "size"; bs "stop"; bs "true"; bs "vacation"].
Proof. vm_compute. reflexivity. Qed.

(* the commands outside wf_def (variadic test lists, test arguments, optional-only or
   non-deterministic argument lists): argcheck_correct says nothing about them *)
Example gen_tables_non_wf_commands :
  map fst (filter (fun kd => negb (wf_def (snd kd))) gen_tables) =
  [bs "addflag"; bs "allof"; bs "anyof"; bs "elsif"; bs "hasflag"; bs "if"; bs "keep"; bs "not";
   bs "removeflag"; bs "setflag"].
Proof. vm_compute. reflexivity. Qed.

Example gen_tables_wf_fixed_arity :
  forallb (fun kd => fixed_arity (snd kd)) (filter (fun kd => wf_def (snd kd)) gen_tables) = true.
Proof. vm_compute. reflexivity. Qed.

Corollary gen_tables_argcheck_correct : forall key d loaded args,
    lookup_cmd gen_tables key = Some d -> wf_def d = true ->
    Forall (fun a => arg_shape_ok a = true) args ->
    corr_stmt d AtTop loaded args.
Proof.
  intros key d loaded args Hl Hwf Hsh. apply argcheck_correct_gen; auto.
  assert (Hall : forallb (fun kd => (fun d => negb (wf_def d) || fixed_arity d) (snd kd)) gen_tables = true)
    by (vm_compute; reflexivity).
  pose proof (lookup_forallb _ gen_tables key d Hall Hl) as H. cbn beta in H. rewrite Hwf in H. exact H.
Qed.

Definition header_def : cmddef :=
  match lookup_cmd gen_tables (bs "header") with Some d => d | None => noargs_variable end.

Example header_is_wf : lookup_cmd gen_tables (bs "header") = Some header_def /\ wf_def header_def = true.
Proof. vm_compute. split; reflexivity. Qed.

Example header_legal_complete :
  legal header_def []
        [(TyTag, VStr (bs ":comparator")); (TyString, VStr (bs """i;octet"""));
         (TyTag, VStr (bs ":contains"));
         (TyString, VStr (bs """a""")); (TyStringList, VList [bs """b"""; bs """c"""])]
  = LComplete [(bs "comparator", VStr (bs ":comparator")); (bs "match-type", VStr (bs ":contains"));
               (bs "header-names", VStr (bs """a""")); (bs "key-list", VList [bs """b"""; bs """c"""])]
              [(bs "comparator", VStr (bs """i;octet"""))].
Proof. vm_compute. reflexivity. Qed.

Example header_count_needs_relational :
  legal header_def []
        [(TyTag, VStr (bs ":count")); (TyString, VStr (bs """gt"""));
         (TyString, VStr (bs """a""")); (TyString, VStr (bs """b"""))]
  = LReject (Some (EExtNotLoaded (bs "relational"))).
Proof. vm_compute. reflexivity. Qed.

Example header_count_with_relational :
  legal header_def [bs "relational"]
        [(TyTag, VStr (bs ":count")); (TyString, VStr (bs """gt"""));
         (TyString, VStr (bs """a""")); (TyString, VStr (bs """b"""))]
  = LComplete [(bs "match-type", VStr (bs ":count")); (bs "header-names", VStr (bs """a"""));
               (bs "key-list", VStr (bs """b"""))]
              [(bs "match-type", VStr (bs """gt"""))].
Proof. vm_compute. reflexivity. Qed.

Print Assumptions argcheck_correct_gen.
Print Assumptions argcheck_correct.
Print Assumptions feed_never_crashes.
Print Assumptions accepts_iff_legal.
Print Assumptions fixed_arity_necessary.
Print Assumptions gen_tables_wf_commands.
Print Assumptions gen_tables_argcheck_correct.
