(* MachineFacts.v — what every argument about the parser machine (Machine.v) starts from:
   names and equations for the pieces of Parser.__command / __arguments / parse that the model inlines,
   what check_completion, __up and complete_cb can change in the state ([moved], up_cases, complete_cb_cases), the
   insensitivity of a transition to token positions, and [finish]. *)
From Coq Require Import List NArith Bool.
From SV Require Import Bytes BytesFacts Lexer Tables ArgCheck Machine.
Import ListNotations.
Local Open Scope nat_scope.

(* the pattern by which cna_scan and Parser.__arguments single out a slot typed ["testlist"] *)
Definition only_testlist (l : list atype) : bool := match l with [TyTestList] => true | _ => false end.

Lemma match_testlist : forall (X : Type) (l : list atype) (A B : X),
  match l with [TyTestList] => A | _ => B end = if only_testlist l then A else B.
Proof. intros X [|[] [|y l]] A B; reflexivity. Qed.

Lemma only_testlist_eq : forall l, only_testlist l = true -> l = [TyTestList].
Proof. intros [|[] [|y l]]; cbn; congruence. Qed.

Lemma lookup_cmd_In : forall T k d, lookup_cmd T k = Some d -> In (k, d) T.
Proof.
  induction T as [|[k0 d0] T IH]; cbn [lookup_cmd]; intros k d H; [discriminate|].
  destruct (beq k0 k) eqn:E; [|right; apply IH; exact H].
  inversion H; subst. apply beq_eq in E. subst. left. reflexivity.
Qed.

Lemma lookup_forallb : forall (P : cmddef -> bool) T k d,
  forallb (fun kd => P (snd kd)) T = true -> lookup_cmd T k = Some d -> P d = true.
Proof.
  intros P T k d HT Hl. rewrite forallb_forall in HT. exact (HT _ (lookup_cmd_In _ _ _ Hl)).
Qed.

Lemma gci_lookup : forall T loaded name d,
  get_command_instance T loaded name = inl d -> lookup_cmd T (lower name) = Some d.
Proof.
  intros T loaded name d. unfold get_command_instance.
  destruct (lookup_cmd T (lower name)) as [d0|]; [|discriminate].
  destruct (d_extension d0) as [[|c e]|]; [| destruct (mem (c :: e) loaded) |];
    intro H; inversion H; reflexivity.
Qed.

Lemma gci_forallb : forall (P : cmddef -> bool) T loaded name d,
  forallb (fun kd => P (snd kd)) T = true -> get_command_instance T loaded name = inl d -> P d = true.
Proof. intros P T loaded name d HT H. eapply lookup_forallb; [exact HT|eapply gci_lookup; exact H]. Qed.

Definition mres_all (P : pstate -> Prop) (r : mres) : Prop :=
  match r with
  | MTrue s | MRewind s | MFalse s => P s
  | MErr _ | MCrash => True
  end.

Lemma mres_all_impl : forall (P Q : pstate -> Prop) r,
  (forall s, P s -> Q s) -> mres_all P r -> mres_all Q r.
Proof. intros P Q [s|s|s|e|] H; cbn; auto. Qed.

(* Parser.__command after __arguments / __stringlist returned False: the token may open the
   block of a complete control or end a command that takes no block *)
Definition after_false (t : token) (st1 : pstate) : mres :=
  match t_kind t with
  | TLeftCBracket =>
      match p_stack st1 with
      | [] => MCrash
      | cur :: _ =>
          if is_control cur && d_accept_children (f_def cur) && iscomplete cur None
          then MTrue (with_cstate CNone (with_brackets (BRCBracket :: p_brackets st1) st1))
          else MFalse st1
      end
  | TSemicolon =>
      match p_stack st1 with
      | [] => MCrash
      | cur :: _ =>
          if is_test cur || d_accept_children (f_def cur) then MFalse st1
          else if pending_param cur then MErr EMissingParam
          else
            match check_completion (with_cstate CNone st1) false with
            | MTrue st2 =>
                match complete_cb st2 with
                | MTrue st3 => up st3
                | r' => r'
                end
            | MRewind st2 => MCrash
            | r' => r'
            end
      end
  | _ => MFalse st1
  end.

Definition on_false (t : token) (r : mres) : mres :=
  match r with MFalse st1 => after_false t st1 | _ => r end.

(* Parser.__command between commands *)
Definition m_command_none (T : tables) (st : pstate) (t : token) : mres :=
  match t_kind t with
  | TRightCBracket =>
      match pop_bracket st BRCBracket with
      | inr e => MErr e
      | inl st1 =>
          match up st1 with
          | MTrue st2 => MTrue (with_cstate CNone st2)
          | r => r
          end
      end
  | TIdentifier =>
      match get_command_instance T (p_loaded st) (t_val t) with
      | inr e => MErr e
      | inl d =>
          match d_type d with
          | CTest => MErr (EFirstCommand (d_name d))
          | _ =>
              let st1 := match d_type d with
                         | CControl => if d_accept_children d && has_arguments d
                                       then with_expected (Some [TIdentifier]) st else st
                         | _ => st
                         end in
              match p_stack st with
              | [] => MTrue (with_cstate CArgs (with_stack [new_frame d AtTop] st1))
              | cur :: _ =>
                  if d_accept_children (f_def cur)
                  then MTrue (with_cstate CArgs (with_stack (new_frame d AtChild :: p_stack st) st1))
                  else MErr EUnexpectedAfter
              end
          end
      end
  | _ => MFalse st
  end.

Lemma m_command_eq : forall T st t,
  m_command T st t =
  match p_cstate st with
  | CNone => m_command_none T st t
  | CArgs => on_false t (m_arguments T st t)
  | CStrList => on_false t (m_stringlist st t)
  end.
Proof. intros T st t. unfold m_command. destruct (p_cstate st); reflexivity. Qed.

(* Parser.__argument on '{' or ',': a command with non_deterministic_args reassigns its arguments; if that
   completes it, the lexer is rewound and the token comes again *)
Definition m_argument_reassign (cur : frame) (st : pstate) : mres :=
  if d_non_deterministic_args (f_def cur) then
    match reassign_arguments cur with
    | None => MCrash
    | Some cur' =>
        let st' := replace_top cur' st in
        if negb (iscomplete cur' None) then MFalse st' else MRewind st'
    end
  else MFalse st.

(* Parser.__arguments: an identifier names a test *)
Definition m_arguments_test (T : tables) (st : pstate) (t : token) : mres :=
  match p_stack st with
  | [] => MCrash
  | cur :: _ =>
      match get_command_instance T (p_loaded st) (t_val t) with
      | inr e => MErr e
      | inl d =>
          match d_type d with
          | CTest =>
              match check_next_arg cur TyTest placeholder true true (p_loaded st) with
              | CnaFalse => MFalse st
              | CnaErr e => MErr e
              | CnaCrash => MCrash
              | CnaOk cur' slot =>
                  let at_ := match slot with
                             | Some ca => match a_type ca with
                                          | [TyTestList] => AtTestList (a_name ca)
                                          | _ => AtTest (a_name ca)
                                          end
                             | None => AtTop
                             end in
                  let st1 := with_expected (d_expected_first d) (replace_top cur' st) in
                  check_completion (with_stack (new_frame d at_ :: p_stack st1) st1) false
              end
          | _ => MErr (ENotTest (d_name d))
          end
      end
  end.

(* Parser.__arguments: anything else goes to __argument, then __check_command_completion *)
Definition m_arguments_default (st : pstate) (t : token) : mres :=
  match m_argument st t with
  | MTrue st1 => check_completion st1 false
  | MRewind st1 =>
      match check_completion st1 false with
      | MTrue st2 => MRewind st2
      | r => r
      end
  | r => r
  end.

Lemma m_arguments_eq : forall T st t,
  m_arguments T st t =
  match t_kind t with
  | TIdentifier => m_arguments_test T st t
  | TLeftParen => MTrue (with_expected (Some [TIdentifier]) (with_brackets (BRParen :: p_brackets st) st))
  | TComma => MTrue (with_expected (Some [TIdentifier]) st)
  | TRightParen =>
      match pop_bracket st BRParen with
      | inr e => MErr e
      | inl st1 => up st1
      end
  | _ => m_arguments_default st t
  end.
Proof. intros T st t. unfold m_arguments. destruct (t_kind t); reflexivity. Qed.

(* the check of the expected token kinds in the loop of Parser.parse *)
Definition expect_then (T : tables) (st : pstate) (t : token) : mres :=
  match p_expected st with
  | Some l => if kind_mem (t_kind t) l then m_command T (with_expected None st) t else MErr EExpected
  | None => m_command T st t
  end.

Lemma process_eq : forall T st t,
  process T st t =
  match t_kind t with
  | THashComment => MTrue (with_hash (p_hash st ++ [strip_ws (t_val t)]) st)
  | TBracketComment => MTrue st
  | _ => expect_then T st t
  end.
Proof. intros T st t. unfold process, expect_then. destruct (t_kind t); reflexivity. Qed.

Lemma process_tok : forall T st t t',
  t_kind t = t_kind t' -> t_val t = t_val t' -> process T st t = process T st t'.
Proof.
  intros T st [k v p] [k' v' p'] Hk Hv. cbn [t_kind t_val] in Hk, Hv. subst k' v'.
  (* by cases on the kind first: comparing the two sides as they stand unfolds the whole machine *)
  destruct k; reflexivity.
Qed.

Lemma pop_bracket_inl : forall st b st1,
  pop_bracket st b = inl st1 -> exists t, p_brackets st = b :: t /\ st1 = with_brackets t st.
Proof.
  intros st b st1 H. unfold pop_bracket in H. destruct (p_brackets st) as [|x t]; [discriminate|].
  destruct (bracket_eqb x b) eqn:E; [|discriminate]. inversion H. exists t. split; [|reflexivity].
  destruct x, b; try discriminate; reflexivity.
Qed.

Lemma pop_bracket_inr : forall st b e,
  pop_bracket st b = inr e -> e = EBracketNone \/ e = EBracketMismatch.
Proof.
  intros st b e H. unfold pop_bracket in H. destruct (p_brackets st) as [|x t]; [inversion H; auto|].
  destruct (bracket_eqb x b); inversion H; auto.
Qed.

Lemma replace_top_eq : forall f st,
  replace_top f st = with_stack (match p_stack st with [] => [] | _ :: r => f :: r end) st.
Proof. intros f [stk cs cl ex br ld hs rs]. destruct stk; reflexivity. Qed.

Lemma replace_top_cons : forall f st c r, p_stack st = c :: r -> replace_top f st = with_stack (f :: r) st.
Proof. intros f st c r H. unfold replace_top. rewrite H. reflexivity. Qed.

Definition moved (st s : pstate) : Prop := exists stk e, s = with_stack stk (with_expected e st).

Lemma moved_refl : forall st, moved st st.
Proof. intros [stk cs cl ex br ld hs rs]. exists stk, ex. reflexivity. Qed.

Lemma moved_stack : forall st stk, moved st (with_stack stk st).
Proof. intros [stk0 cs cl ex br ld hs rs] stk. exists stk, ex. reflexivity. Qed.

Lemma cc_loop_moved : forall rest cur st, mres_all (moved st) (cc_loop cur rest st).
Proof.
  induction rest as [|parent rest' IH]; intros cur st; cbn [cc_loop]; [apply moved_stack|].
  destruct (is_control _ || is_test _); [|apply IH].
  destruct (iscomplete _ None).
  - destruct (is_control _); [|apply IH]. cbn. eexists _, _. reflexivity.
  - destruct (check_next_arg _ _ _ _ _ _) as [p2 sl| | |]; cbn; auto; [|apply moved_stack].
    destruct (negb _); [|apply IH].
    destruct (d_variable_args_nb _); cbn; [eexists _, _; reflexivity|apply moved_stack].
Qed.

Lemma check_completion_moved : forall st ts, mres_all (moved st) (check_completion st ts).
Proof.
  intros st ts. unfold check_completion. destruct (p_stack st) as [|cur rest] eqn:Es; [exact I|].
  destruct (negb _); [apply moved_refl|].
  destruct (is_action cur || _); [|apply cc_loop_moved].
  destruct ts; cbn; [|apply moved_refl]. exists (p_stack st), (Some [TSemicolon]). destruct st; reflexivity.
Qed.

Lemma cc_loop_no_rewind : forall rest cur st s, cc_loop cur rest st <> MRewind s.
Proof.
  induction rest as [|parent rest' IH]; intros cur st s; cbn [cc_loop]; [discriminate|].
  destruct (is_control _ || is_test _); [|apply IH].
  destruct (iscomplete _ None).
  - destruct (is_control _); [discriminate|apply IH].
  - destruct (check_next_arg _ _ _ _ _ _); try discriminate. destruct (negb _); [discriminate|apply IH].
Qed.

Lemma check_completion_no_rewind : forall st ts s, check_completion st ts <> MRewind s.
Proof.
  intros st ts s. unfold check_completion. destruct (p_stack st); [discriminate|].
  destruct (negb _); [discriminate|]. destruct (_ || _); [discriminate|apply cc_loop_no_rewind].
Qed.

(* Parser.__up: a top-level command goes to the result with the pending comments; a nested one
   into its parent, and only stack and expected kinds change *)
Lemma up_cases : forall st,
  match up st with
  | MTrue s =>
      (exists cur, p_stack st = [cur] /\
         s = with_stack [] (with_hash [] (with_result (p_result st ++ [frame_node cur (p_hash st)]) st))) \/
      (exists cur parent rest, p_stack st = cur :: parent :: rest /\ moved st s)
  | MErr e => e = EMustFollow
  | MCrash => p_stack st = []
  | MRewind _ | MFalse _ => False
  end.
Proof.
  intros st. unfold up. destruct (p_stack st) as [|cur [|parent rest]]; [reflexivity| |].
  - destruct (negb _); [reflexivity|]. left. exists cur. split; reflexivity.
  - destruct (negb _); [reflexivity|]. destruct (up_loop _ _ _) as [stk e].
    right. exists cur, parent, rest. split; [reflexivity|]. exists stk, e. reflexivity.
Qed.

(* RequireCommand.complete_cb: nothing, or the capabilities of the current command are loaded *)
Lemma complete_cb_cases : forall st,
  match complete_cb st with
  | MTrue s =>
      s = st \/
      exists cur rest items,
        p_stack st = cur :: rest /\ d_complete (f_def cur) = HRequire /\
        (assoc_get capabilities_key (f_args cur) = Some (VList items) \/
         exists x, assoc_get capabilities_key (f_args cur) = Some (VStr x) /\ items = [x]) /\
        s = with_loaded (load_exts items (p_loaded st)) st
  | MCrash => True
  | MErr _ | MRewind _ | MFalse _ => False
  end.
Proof.
  intros st. unfold complete_cb. destruct (p_stack st) as [|cur rest]; [exact I|].
  destruct (d_complete (f_def cur)) eqn:Ec; [left; reflexivity|].
  destruct (assoc_get capabilities_key (f_args cur)) as [[x|l|n|ns]|] eqn:Ea; try exact I.
  - right. exists cur, rest, [x]. repeat split; auto. right. exists x. auto.
  - right. exists cur, rest, l. repeat split; auto.
  - left. reflexivity.
Qed.

Lemma finish_spec : forall st endpos lastlen,
  finish st endpos lastlen =
  match p_brackets st, p_expected st, p_stack st with
  | [], None, [] => Accept (p_result st)
  | [], None, _ :: _ => Reject EEndUnfinished endpos lastlen
  | _, _, _ => Reject EEndExpected endpos lastlen
  end.
Proof.
  intros st endpos lastlen. unfold finish.
  destruct (p_brackets st); [destruct (p_expected st); [|destruct (p_stack st)]|]; reflexivity.
Qed.

Lemma finish_accept : forall st e l r,
  finish st e l = Accept r ->
  r = p_result st /\ p_stack st = [] /\ p_brackets st = [] /\ p_expected st = None.
Proof.
  intros st e l r. rewrite finish_spec.
  destruct (p_brackets st); [|discriminate]. destruct (p_expected st); [discriminate|].
  destruct (p_stack st); [|discriminate]. intro H; inversion H; auto.
Qed.

Lemma finish_reject : forall st endpos lastlen e pos tlen,
  finish st endpos lastlen = Reject e pos tlen ->
  (e = EEndExpected \/ e = EEndUnfinished) /\ pos = endpos.
Proof.
  intros st endpos lastlen e pos tlen. rewrite finish_spec.
  destruct (p_brackets st); [destruct (p_expected st); [|destruct (p_stack st)]|];
    intro H; inversion H; auto.
Qed.
