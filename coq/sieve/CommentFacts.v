(* CommentFacts.v — comments do not influence parsing (C01: "the verdict is insensitive to ... comments").

   The parser machine reads the pending hash comments and the comments stored in the result only to copy
   them.  [norm] forgets both; every transition commutes with [norm]; a comment token changes nothing else.
   Hence two texts whose token sequences agree once comments are removed (and positions ignored) get the
   same verdict, the same error category and the same tree up to the comments attached to top-level
   commands.  For ALL inputs and all tables satisfying the table condition. *)
From Coq Require Import List NArith Bool Arith Lia.
From SV Require Import lib.Bytes sieve.Lexer sieve.Tables sieve.ArgCheck sieve.Machine
  sieve.PositionFacts sieve.TotalFacts sieve.CompleteFacts.
Import ListNotations.
Local Close Scope N_scope.

Definition strip_top (n : node) : node := Node (node_def n) (node_args n) (node_extra n) (node_children n) [].

Definition norm (st : pstate) : pstate := with_hash [] (with_result (map strip_top (p_result st)) st).

Definition mmap (g : pstate -> pstate) (r : mres) : mres :=
  match r with
  | MTrue s => MTrue (g s) | MFalse s => MFalse (g s) | MRewind s => MRewind (g s)
  | MErr e => MErr e | MCrash => MCrash
  end.

Lemma strip_top_idem : forall n, strip_top (strip_top n) = strip_top n.
Proof. intros []; reflexivity. Qed.

Lemma norm_idem : forall st, norm (norm st) = norm st.
Proof.
  intros st. unfold norm. pcbn. rewrite map_map.
  rewrite (map_ext _ _ strip_top_idem). reflexivity.
Qed.

Lemma last_opt_map : forall (A B : Type) (f : A -> B) l, last_opt (map f l) = option_map f (last_opt l).
Proof.
  induction l as [|a l IH]; [reflexivity|]. cbn [map]. destruct l as [|b l']; [reflexivity|]. exact IH.
Qed.

Definition commutes (F : pstate -> mres) : Prop := forall st, F (norm st) = mmap norm (F st).

Lemma up_commutes : commutes up.
Proof.
  intros st. unfold up. change (p_stack (norm st)) with (p_stack st).
  destruct (p_stack st) as [|cur rest]; [reflexivity|].
  assert (Hprev : forall mf,
            match (match rest with [] => last_opt (p_result (norm st)) | parent :: _ => last_opt (f_children parent) end) with
            | None => false | Some n => mem (d_name (node_def n)) mf end =
            match (match rest with [] => last_opt (p_result st) | parent :: _ => last_opt (f_children parent) end) with
            | None => false | Some n => mem (d_name (node_def n)) mf end).
  { intro mf. destruct rest; [|reflexivity]. unfold norm. pcbn. rewrite last_opt_map.
    destruct (last_opt (p_result st)) as [n|]; [destruct n|]; reflexivity. }
  destruct (d_must_follow (f_def cur)) as [mf|].
  - rewrite Hprev.
    destruct (match (match rest with [] => last_opt (p_result st) | parent :: _ => last_opt (f_children parent) end) with
              | None => false | Some n => mem (d_name (node_def n)) mf end); cbn [negb]; [|reflexivity].
    destruct rest as [|parent rest'].
    + cbn [mmap]. unfold norm. pcbn. rewrite map_app. reflexivity.
    + change (p_expected (norm st)) with (p_expected st).
      destruct (up_loop (attach_into cur parent) rest' (p_expected st)) as [s' e']. reflexivity.
  - cbn [negb]. destruct rest as [|parent rest'].
    + cbn [mmap]. unfold norm. pcbn. rewrite map_app. reflexivity.
    + change (p_expected (norm st)) with (p_expected st).
      destruct (up_loop (attach_into cur parent) rest' (p_expected st)) as [s' e']. reflexivity.
Qed.

Lemma cc_loop_commutes : forall rest cur, commutes (cc_loop cur rest).
Proof.
  induction rest as [|parent rest' IH]; intros cur st; cbn [cc_loop]; [reflexivity|].
  change (p_loaded (norm st)) with (p_loaded st).
  destruct (is_control (attach_into cur parent) || is_test (attach_into cur parent)); [|apply IH].
  destruct (iscomplete (attach_into cur parent) None).
  - destruct (is_control (attach_into cur parent)); [reflexivity|apply IH].
  - destruct (check_next_arg (attach_into cur parent) TyTest placeholder false true (p_loaded st)) as [p2 o| | |]; try reflexivity.
    destruct (negb (iscomplete p2 None)); [|apply IH].
    destruct (d_variable_args_nb (f_def p2)); reflexivity.
Qed.

Lemma check_completion_commutes : forall ts, commutes (fun st => check_completion st ts).
Proof.
  intros ts st. unfold check_completion. change (p_stack (norm st)) with (p_stack st).
  destruct (p_stack st) as [|cur rest]; [reflexivity|].
  destruct (negb (iscomplete cur None)); [reflexivity|].
  destruct (is_action cur || is_control cur && negb (d_accept_children (f_def cur))).
  - destruct ts; reflexivity.
  - apply cc_loop_commutes.
Qed.

Lemma complete_cb_commutes : commutes complete_cb.
Proof.
  intros st. unfold complete_cb. change (p_stack (norm st)) with (p_stack st).
  destruct (p_stack st) as [|cur rest]; [reflexivity|].
  destruct (d_complete (f_def cur)); [reflexivity|].
  destruct (assoc_get capabilities_key (f_args cur)) as [[]|]; reflexivity.
Qed.

Lemma commutes_pre : forall F (g : pstate -> pstate),
  commutes F -> (forall st, g (norm st) = norm (g st)) -> commutes (fun st => F (g st)).
Proof. intros F g HF Hg st. cbv beta. rewrite Hg. apply HF. Qed.

Lemma replace_top_norm : forall f st, replace_top f (norm st) = norm (replace_top f st).
Proof. intros f st. unfold replace_top. change (p_stack (norm st)) with (p_stack st). destruct (p_stack st); reflexivity. Qed.

Lemma pop_bracket_norm : forall st b,
  pop_bracket (norm st) b = match pop_bracket st b with inl s => inl (norm s) | inr e => inr e end.
Proof.
  intros st b. unfold pop_bracket. change (p_brackets (norm st)) with (p_brackets st).
  destruct (p_brackets st) as [|x t]; [reflexivity|]. destruct (bracket_eqb x b); reflexivity.
Qed.

Lemma m_stringlist_commutes : forall t, commutes (fun st => m_stringlist st t).
Proof.
  intros t st. unfold m_stringlist. change (p_stack (norm st)) with (p_stack st).
  destruct (p_stack st) as [|cur rest] eqn:Es; [reflexivity|].
  destruct (t_kind t); try reflexivity.
  - rewrite pop_bracket_norm. destruct (pop_bracket st BRBracket) as [st1|e]; [|reflexivity].
    change (p_curlist (norm st1)) with (p_curlist st1). change (p_loaded (norm st1)) with (p_loaded st1).
    unfold lift_cna.
    destruct (check_next_arg cur TyStringList (VList (p_curlist st1)) true true (p_loaded st1)) as [f o| | |]; try reflexivity.
    rewrite replace_top_norm.
    apply (check_completion_commutes true (with_cstate CArgs (replace_top f st1))).
  - destruct (negb (utf8_valid (t_val t))); reflexivity.
Qed.

Lemma m_argument_commutes : forall t, commutes (fun st => m_argument st t).
Proof.
  intros t st. unfold m_argument. change (p_stack (norm st)) with (p_stack st).
  change (p_loaded (norm st)) with (p_loaded st). change (p_brackets (norm st)) with (p_brackets st).
  destruct (p_stack st) as [|cur rest] eqn:Es; [reflexivity|].
  assert (L : forall r, lift_cna r (norm st) MTrue = mmap norm (lift_cna r st MTrue)).
  { intros [f o| | |]; cbn [lift_cna mmap]; try reflexivity. rewrite replace_top_norm. reflexivity. }
  assert (Hre : m_argument_reassign cur (norm st) = mmap norm (m_argument_reassign cur st)).
  { unfold m_argument_reassign. destruct (d_non_deterministic_args (f_def cur)); [|reflexivity].
    destruct (reassign_arguments cur) as [cur'|]; [|reflexivity]. cbv zeta. rewrite replace_top_norm.
    destruct (negb (iscomplete cur' None)); reflexivity. }
  (* '{' and ',' reassign; strings, numbers and tags go to check_next_arg; '[' opens a list; the rest is refused *)
  destruct (t_kind t); try reflexivity; try apply L; try exact Hre.
  - destruct (negb (utf8_valid (t_val t))); [reflexivity|apply L].
  - destruct (negb (utf8_valid (t_val t))); [reflexivity|apply L].
Qed.

Lemma m_arguments_default_commutes : forall t, commutes (fun st => m_arguments_default st t).
Proof.
  intros t st. unfold m_arguments_default. rewrite (m_argument_commutes t st).
  destruct (m_argument st t) as [s|s|s|e|]; cbn [mmap]; try reflexivity.
  - apply (check_completion_commutes false s).
  - rewrite (check_completion_commutes false s). destruct (check_completion s false); reflexivity.
Qed.

Lemma m_arguments_commutes : forall T t, commutes (fun st => m_arguments T st t).
Proof.
  intros T t st. cbv beta. rewrite !m_arguments_eq. change (p_brackets (norm st)) with (p_brackets st).
  destruct (t_kind t); try apply m_arguments_default_commutes; try reflexivity.
  - rewrite pop_bracket_norm. destruct (pop_bracket st BRParen) as [st1|e]; [apply up_commutes|reflexivity].
  - unfold m_arguments_test. change (p_stack (norm st)) with (p_stack st). change (p_loaded (norm st)) with (p_loaded st).
    destruct (p_stack st) as [|cur rest] eqn:Es; [reflexivity|].
    destruct (get_command_instance T (p_loaded st) (t_val t)) as [d|e]; [|reflexivity].
    destruct (d_type d); try reflexivity.
    destruct (check_next_arg cur TyTest placeholder true true (p_loaded st)) as [cur' slot| | |]; try reflexivity.
    cbv zeta. rewrite replace_top_norm.
    apply (check_completion_commutes false
             (with_stack (_ :: p_stack (with_expected (d_expected_first d) (replace_top cur' st)))
                         (with_expected (d_expected_first d) (replace_top cur' st)))).
Qed.

Lemma after_false_commutes : forall t, commutes (after_false t).
Proof.
  intros t s. unfold after_false.
  change (p_stack (norm s)) with (p_stack s). change (p_brackets (norm s)) with (p_brackets s).
  destruct (t_kind t); try reflexivity.
  - destruct (p_stack s) as [|cur rest]; [reflexivity|].
    destruct (is_control cur && d_accept_children (f_def cur) && iscomplete cur None); reflexivity.
  - destruct (p_stack s) as [|cur rest]; [reflexivity|].
    destruct (is_test cur || d_accept_children (f_def cur)); [reflexivity|].
    destruct (pending_param cur); [reflexivity|].
    change (with_cstate CNone (norm s)) with (norm (with_cstate CNone s)).
    rewrite (check_completion_commutes false (with_cstate CNone s)).
    destruct (check_completion (with_cstate CNone s) false) as [s2|s2|s2|e|]; cbn [mmap]; try reflexivity.
    rewrite (complete_cb_commutes s2). destruct (complete_cb s2) as [s3|s3|s3|e|]; cbn [mmap]; try reflexivity.
    apply up_commutes.
Qed.

Lemma on_false_commutes : forall t r, on_false t (mmap norm r) = mmap norm (on_false t r).
Proof. intros t [s|s|s|e|]; try reflexivity. apply after_false_commutes. Qed.

Lemma m_command_commutes : forall T t, commutes (fun st => m_command T st t).
Proof.
  intros T t st. cbv beta. rewrite !m_command_eq. change (p_cstate (norm st)) with (p_cstate st).
  destruct (p_cstate st).
  - unfold m_command_none.
    change (p_stack (norm st)) with (p_stack st). change (p_loaded (norm st)) with (p_loaded st).
    destruct (t_kind t); try reflexivity.
    + rewrite pop_bracket_norm. destruct (pop_bracket st BRCBracket) as [st1|e]; [|reflexivity].
      rewrite (up_commutes st1). destruct (up st1); reflexivity.
    + destruct (get_command_instance T (p_loaded st) (t_val t)) as [d|e]; [|reflexivity].
      destruct (d_type d); try reflexivity.
      * destruct (d_accept_children d && has_arguments d); destruct (p_stack st) as [|cur rest]; try reflexivity;
          destruct (d_accept_children (f_def cur)); reflexivity.
      * destruct (p_stack st) as [|cur rest]; [reflexivity|]. destruct (d_accept_children (f_def cur)); reflexivity.
  - rewrite (m_arguments_commutes T t st). apply on_false_commutes.
  - rewrite (m_stringlist_commutes t st). apply on_false_commutes.
Qed.

Lemma process_commutes : forall T t, t_kind t <> THashComment -> commutes (fun st => process T st t).
Proof.
  intros T t Hk st. cbv beta. rewrite !process_eq. unfold expect_then. change (p_expected (norm st)) with (p_expected st).
  destruct (t_kind t) eqn:Ek; try congruence; try reflexivity;
    (destruct (p_expected st) as [l|];
     [destruct (kind_mem _ l); [|reflexivity]; apply (m_command_commutes T t (with_expected None st))
     |apply (m_command_commutes T t st)]).
Qed.

Lemma process_hash : forall T st t, t_kind t = THashComment ->
  exists st', process T st t = MTrue st' /\ norm st' = norm st.
Proof. intros T st t Hk. rewrite process_eq, Hk. eexists. split; reflexivity. Qed.


Definition is_comment (t : token) : bool :=
  match t_kind t with THashComment | TBracketComment => true | _ => false end.

Definition decomment (l : list token) : list token := filter (fun t => negb (is_comment t)) l.

(* same verdict, same error category, same tree up to the comments attached to top-level commands *)
Definition outcome_eqc (a b : outcome) : Prop :=
  match a, b with
  | Accept r, Accept r' => map strip_top r = map strip_top r'
  | Reject e _ _, Reject e' _ _ => e = e'
  | Crash _, Crash _ => True
  | OutOfFuel, OutOfFuel => True
  | _, _ => False
  end.

Lemma outcome_eqc_sym : forall a b, outcome_eqc a b -> outcome_eqc b a.
Proof. intros [] []; cbn; auto. Qed.

Lemma outcome_eqc_trans : forall a b c, outcome_eqc a b -> outcome_eqc b c -> outcome_eqc a c.
Proof. intros [] [] []; cbn; try tauto; congruence. Qed.

Lemma same_outcome_eqc : forall a b, same_outcome a b -> outcome_eqc a b.
Proof. intros [] []; cbn; auto. intros ->. reflexivity. Qed.

Lemma norm_fields : forall s1 s2, norm s1 = norm s2 ->
  p_stack s1 = p_stack s2 /\ p_expected s1 = p_expected s2 /\ p_brackets s1 = p_brackets s2 /\
  map strip_top (p_result s1) = map strip_top (p_result s2).
Proof.
  intros s1 s2 H.
  split; [exact (f_equal p_stack H)|]. split; [exact (f_equal p_expected H)|].
  split; [exact (f_equal p_brackets H)|exact (f_equal p_result H)].
Qed.

Lemma finish_norm : forall s1 s2 e1 e2 l1 l2, norm s1 = norm s2 -> outcome_eqc (finish s1 e1 l1) (finish s2 e2 l2).
Proof.
  intros s1 s2 e1 e2 l1 l2 H. destruct (norm_fields s1 s2 H) as (A & B & C & D).
  unfold finish. rewrite A, B, C.
  destruct (match p_brackets s2 with b :: _ => Some [closing_kind b] | [] => p_expected s2 end); [reflexivity|].
  destruct (p_stack s2); [exact D|reflexivity].
Qed.

Lemma process_comment : forall T st t, is_comment t = true ->
  exists st', process T st t = MTrue st' /\ norm st' = norm st.
Proof.
  intros T st t H. unfold is_comment in H. rewrite process_eq.
  destruct (t_kind t); try discriminate; eexists; split; reflexivity.
Qed.

Lemma process_related : forall T t s1 s2, is_comment t = false -> norm s1 = norm s2 ->
  mmap norm (process T s1 t) = mmap norm (process T s2 t).
Proof.
  intros T t s1 s2 Hc H.
  assert (Hk : t_kind t <> THashComment) by (unfold is_comment in Hc; destruct (t_kind t); congruence).
  rewrite <- (process_commutes T t Hk s1), <- (process_commutes T t Hk s2), H. reflexivity.
Qed.

Lemma run_tokens_decomment : forall T f1 f2 toks err e1 e2 l1 l2 s1 s2,
  norm s1 = norm s2 ->
  run_tokens f1 T toks err e1 l1 s1 <> OutOfFuel ->
  run_tokens f2 T (decomment toks) err e2 l2 s2 <> OutOfFuel ->
  outcome_eqc (run_tokens f1 T toks err e1 l1 s1) (run_tokens f2 T (decomment toks) err e2 l2 s2).
Proof.
  intros T. induction f1 as [|f1 IH]; intros f2 toks err e1 e2 l1 l2 s1 s2 Hn H1 H2; [cbn in H1; congruence|].
  destruct toks as [|t r].
  - cbn [decomment filter] in *. destruct f2 as [|f2]; [cbn in H2; congruence|].
    rewrite !run_tokens_S_nil. destruct err; [reflexivity|]. apply finish_norm. exact Hn.
  - rewrite run_tokens_S_cons in *. destruct (is_comment t) eqn:Ec.
    + destruct (process_comment T s1 t Ec) as (s1' & P & N). rewrite P in *.
      assert (Hd : decomment (t :: r) = decomment r) by (unfold decomment; cbn [filter]; rewrite Ec; reflexivity).
      rewrite Hd in *. apply IH; [congruence|exact H1|exact H2].
    + assert (Hd : decomment (t :: r) = t :: decomment r) by (unfold decomment; cbn [filter]; rewrite Ec; reflexivity).
      rewrite Hd in *. destruct f2 as [|f2]; [cbn in H2; congruence|]. rewrite run_tokens_S_cons in *.
      pose proof (process_related T t s1 s2 Ec Hn) as R.
      destruct (process T s1 t) as [a|a|a|ea|]; destruct (process T s2 t) as [b|b|b|eb|]; cbn [mmap] in R; try discriminate;
        try (cbn; auto; fail).
      * apply IH; [congruence|exact H1|exact H2].
      * rewrite <- Hd. apply IH; [congruence|exact H1|rewrite Hd; exact H2].
      * cbn. congruence.
Qed.

Lemma filter_len : forall (A : Type) (f : A -> bool) l, length (filter f l) <= length l.
Proof. induction l as [|a l IH]; [auto|]. cbn. destruct (f a); cbn; lia. Qed.

(* C01: comments (and white space, line endings, positions) do not influence the verdict, the error category
   or the tree -- except for the comments recorded on top-level commands *)
Theorem comment_insensitive : forall T text1 text2,
  twf_tables T = true ->
  map strip_pos (decomment (fst (lex text1))) = map strip_pos (decomment (fst (lex text2))) ->
  (snd (lex text1) = None <-> snd (lex text2) = None) ->
  outcome_eqc (parse T text1) (parse T text2).
Proof.
  intros T text1 text2 HT Hm He.
  pose proof (parse_total T text1 HT) as P1. pose proof (parse_total T text2 HT) as P2.
  rewrite !parse_run_tokens in *.
  set (F1 := 2 * length text1 + 2) in *. set (F2 := 2 * length text2 + 2) in *.
  assert (Hlen : forall text, length (decomment (fst (lex text))) <= length text).
  { intro text. pose proof (token_count text). pose proof (filter_len _ (fun t => negb (is_comment t)) (fst (lex text))).
    unfold decomment. lia. }
  assert (B1 : match run_tokens F1 T (decomment (fst (lex text1))) (snd (lex text1)) (length text1) 0 p_init with
               | Accept _ | Reject _ _ _ => True | _ => False end).
  { apply (run_tokens_total T _ _ _ _ _ p_init false HT Inv_init); [discriminate|].
    unfold measure, F1. pose proof (Hlen text1). lia. }
  assert (B2 : match run_tokens F2 T (decomment (fst (lex text2))) (snd (lex text2)) (length text2) 0 p_init with
               | Accept _ | Reject _ _ _ => True | _ => False end).
  { apply (run_tokens_total T _ _ _ _ _ p_init false HT Inv_init); [discriminate|].
    unfold measure, F2. pose proof (Hlen text2). lia. }
  eapply outcome_eqc_trans.
  { apply (run_tokens_decomment T F1 F1 (fst (lex text1)) (snd (lex text1)) (length text1) (length text1) 0 0 p_init p_init eq_refl); intro X; [rewrite X in P1|rewrite X in B1]; contradiction. }
  eapply outcome_eqc_trans.
  { apply same_outcome_eqc.
    apply (run_tokens_layout T F1 F2 (decomment (fst (lex text1))) (decomment (fst (lex text2))) (snd (lex text1)) (snd (lex text2)) (length text1) (length text2) 0 0 p_init Hm He);
      intro X; [rewrite X in B1|rewrite X in B2]; contradiction. }
  apply outcome_eqc_sym.
  apply (run_tokens_decomment T F2 F2 (fst (lex text2)) (snd (lex text2)) (length text2) (length text2) 0 0 p_init p_init eq_refl); intro X; [rewrite X in P2|rewrite X in B2]; contradiction.
Qed.

Print Assumptions comment_insensitive.
