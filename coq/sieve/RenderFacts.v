(* RenderFacts.v — the lexer inverts rendering: a sequence of well-formed tokens written one after the other,
   separated by any amount of white space (none where the two tokens cannot merge), is lexed back as exactly
   that sequence.  Unbounded over token values, lengths and white space.  This is the lexical half of the
   print/parse round trip (C04): Printer output is such a rendering. *)
From Coq Require Import List NArith Bool Arith Lia ZifyBool ZifyN.
From SV Require Import lib.Bytes lib.BytesFacts sieve.Lexer sieve.LexerFacts sieve.PositionFacts sieve.CompleteFacts.
Import ListNotations.
Open Scope N_scope.

(* the bytes Command.tosieve can put right after a word: white space, punctuation, a double quote *)
Definition delim (c : N) : bool :=
  is_space c || (c =? 59) || (c =? 44) || (c =? 40) || (c =? 41) || (c =? 123) || (c =? 125) || (c =? 91)
  || (c =? 93) || (c =? 34).

Definition tail_delim (tail : bytes) : Prop :=
  match tail with [] => True | x :: _ => delim x = true end.

Lemma delim_facts : forall x, delim x = true -> is_word x = false /\ is_digit x = false /\ is_quant x = false.
Proof.
  intros x H. unfold delim, is_space, is_word, is_alpha, is_upper, is_lower, is_digit, is_quant in *. lia.
Qed.

Lemma ident_start_word : forall c, is_ident_start c = true -> is_word c = true /\ is_space c = false.
Proof. intros c H. unfold is_ident_start, is_word, is_space, is_alpha, is_upper, is_lower, is_digit in *. lia. Qed.

Lemma byte_class_ident : forall c, is_ident_start c = true -> byte_class c = BIdent.
Proof.
  intros c H. unfold byte_class. rewrite H.
  repeat (let E := fresh in destruct (c =? _) eqn:E; [exfalso; unfold is_ident_start, is_alpha, is_upper, is_lower in H; lia|clear E]).
  destruct (is_digit c) eqn:?; [exfalso; unfold is_ident_start, is_alpha, is_upper, is_lower, is_digit in *; lia|reflexivity].
Qed.

Lemma byte_class_digit : forall c, is_digit c = true -> byte_class c = BDigit /\ is_space c = false.
Proof.
  intros c H. split; [|unfold is_digit, is_space in *; lia]. unfold byte_class. rewrite H.
  repeat (let E := fresh in destruct (c =? _) eqn:E; [exfalso; unfold is_digit in H; lia|clear E]). reflexivity.
Qed.

Lemma scan_multiline_some : forall l n, scan_multiline l = Some n -> exists t, l = 116 :: 101 :: 120 :: 116 :: 58 :: t.
Proof.
  intros l n H.
  destruct l as [|a l]; [discriminate|]. byte_lit a discriminate.
  destruct l as [|b l]; [discriminate|]. byte_lit b discriminate.
  destruct l as [|c l]; [discriminate|]. byte_lit c discriminate.
  destruct l as [|d l]; [discriminate|]. byte_lit d discriminate.
  destruct l as [|e l]; [discriminate|]. byte_lit e discriminate.
  eauto.
Qed.

Lemma run_not_prefix : forall p y t v tail,
  forallb is_word v = true -> tail_delim tail -> v ++ tail = p ++ y :: t ->
  forallb (fun c => negb (delim c)) p = true -> is_word y = false -> delim y = false -> False.
Proof.
  induction p as [|x p IH]; intros y t [|a v] tail Hv Ht E Hp Hy Hd; cbn [app forallb] in *.
  - subst tail. cbn in Ht. congruence.
  - inversion E; subst. apply andb_true_iff in Hv as [Ha _]. congruence.
  - subst tail. cbn in Ht. apply andb_true_iff in Hp as [Hx _]. rewrite Ht in Hx. discriminate.
  - inversion E; subst. apply andb_true_iff in Hv as [_ Hv]. apply andb_true_iff in Hp as [_ Hp]. eapply IH; eauto.
Qed.

Lemma no_multiline_word : forall v tail,
  forallb is_word v = true -> tail_delim tail -> scan_multiline (v ++ tail) = None.
Proof.
  intros v tail Hv Ht. destruct (scan_multiline (v ++ tail)) as [n|] eqn:E; [|reflexivity]. exfalso.
  destruct (scan_multiline_some _ _ E) as (t & Heq).
  apply (run_not_prefix [116; 101; 120; 116] 58 t v tail Hv Ht Heq); reflexivity.
Qed.

Definition ident_ok (v : bytes) : bool :=
  match v with c :: r => is_ident_start c && forallb is_word r | [] => false end.

Lemma ident_ok_word : forall v, ident_ok v = true -> forallb is_word v = true.
Proof.
  intros [|c r] H; [discriminate|]. cbn in *. apply andb_true_iff in H as [A B].
  rewrite (proj1 (ident_start_word c A)), B. reflexivity.
Qed.

Lemma scan_identifier_ok : forall v tail,
  ident_ok v = true -> tail_delim tail -> scan_identifier (v ++ tail) = Some (length v).
Proof.
  intros [|c r] tail H Ht; [discriminate|]. cbn in H. apply andb_true_iff in H as [A B].
  cbn [app scan_identifier]. rewrite A.
  assert (Hstop : match tail with [] => True | x :: _ => is_word x = false end).
  { destruct tail as [|x t]; [exact I|]. cbn in Ht. apply (delim_facts x Ht). }
  destruct (take_drop_stop is_word r tail B Hstop) as (T & _). rewrite T. reflexivity.
Qed.

Lemma scan_rules_ident : forall v tail,
  ident_ok v = true -> tail_delim tail -> scan_rules (v ++ tail) = Some (TIdentifier, length v).
Proof.
  intros v tail H Ht. pose proof (scan_identifier_ok v tail H Ht) as Hi.
  pose proof (no_multiline_word v tail (ident_ok_word v H) Ht) as Hm.
  destruct v as [|c r]; [discriminate|]. cbn in H. apply andb_true_iff in H as [A _].
  cbn [app] in *. rewrite scan_rules_cons, (byte_class_ident c A), Hm, Hi. reflexivity.
Qed.

Definition tag_ok (v : bytes) : bool := match v with 58 :: r => ident_ok r | _ => false end.

Lemma tag_ok_shape : forall v, tag_ok v = true -> exists r, v = 58 :: r /\ ident_ok r = true.
Proof. intros [|c r] H; [discriminate|]. unfold tag_ok in H. byte_lit c discriminate. eauto. Qed.

Lemma scan_rules_tag : forall v tail,
  tag_ok v = true -> tail_delim tail -> scan_rules (v ++ tail) = Some (TTag, length v).
Proof.
  intros v tail H Ht. destruct (tag_ok_shape v H) as (r & -> & Hr).
  cbn [app]. rewrite scan_rules_cons. change (byte_class 58) with BColon.
  cbn [scan_tag]. rewrite (scan_identifier_ok r tail Hr Ht). reflexivity.
Qed.

Definition num_ok (v : bytes) : Prop :=
  exists ds q, v = ds ++ q /\ ds <> [] /\ forallb is_digit ds = true /\
               (q = [] \/ exists x, q = [x] /\ is_quant x = true).

Definition num_okb (v : bytes) : bool :=
  match take_while is_digit v with
  | [] => false
  | _ => match drop_while is_digit v with
         | [] => true
         | [x] => is_quant x
         | _ => false
         end
  end.

Lemma take_while_all_f : forall f l, forallb f (take_while f l) = true.
Proof. induction l as [|a l IH]; [reflexivity|]. cbn. destruct (f a) eqn:E; [cbn; rewrite E, IH|]; reflexivity. Qed.

Lemma num_okb_ok : forall v, num_okb v = true -> num_ok v.
Proof.
  intros v H. unfold num_okb in H. exists (take_while is_digit v), (drop_while is_digit v).
  split; [symmetry; apply take_drop_while|].
  destruct (take_while is_digit v) as [|d ds] eqn:E; [discriminate|].
  split; [discriminate|]. split; [rewrite <- E; apply take_while_all_f|].
  destruct (drop_while is_digit v) as [|x [|y r]]; [left; reflexivity|right; exists x; auto|discriminate].
Qed.

Lemma scan_rules_number : forall v tail,
  num_ok v -> tail_delim tail -> scan_rules (v ++ tail) = Some (TNumber, length v).
Proof.
  intros v tail (ds & q & -> & Hne & Hd & Hq) Ht.
  assert (Hstop : match q ++ tail with [] => True | x :: _ => is_digit x = false end).
  { destruct Hq as [->|(x & -> & Hx)]; cbn [app].
    - destruct tail as [|y t]; [exact I|]. cbn in Ht. apply (delim_facts y Ht).
    - unfold is_quant, is_digit in *. lia. }
  rewrite <- app_assoc.
  destruct (take_drop_stop is_digit ds (q ++ tail) Hd Hstop) as (T & D).
  assert (Hn : scan_number (ds ++ q ++ tail) = Some (length (ds ++ q))).
  { unfold scan_number. rewrite T, D. destruct ds as [|d0 ds']; [congruence|].
    rewrite app_length. destruct Hq as [->|(x & -> & Hx)]; cbn [app length].
    - rewrite Nat.add_0_r. destruct tail as [|y t]; [reflexivity|]. cbn in Ht.
      destruct (delim_facts y Ht) as (_ & _ & Q). rewrite Q. reflexivity.
    - rewrite Hx. f_equal. lia. }
  destruct ds as [|c ds']; [congruence|]. cbn [forallb] in Hd. apply andb_true_iff in Hd as [Hc _].
  cbn [app] in *. rewrite scan_rules_cons, (proj1 (byte_class_digit c Hc)), Hn. reflexivity.
Qed.

Definition ml_ok (v : bytes) : Prop :=
  forall tail, (tail = [] \/ exists t, tail = 10 :: t) -> scan_multiline (v ++ tail) = Some (length v).

Lemma ml_ok_shape : forall v, ml_ok v -> exists t, v = 116 :: 101 :: 120 :: 116 :: 58 :: t.
Proof.
  intros v H. destruct (scan_multiline_some _ _ (H [] (or_introl eq_refl))) as (t & Hv).
  rewrite app_nil_r in Hv. eauto.
Qed.

Lemma scan_rules_ml : forall v tail,
  ml_ok v -> (tail = [] \/ exists t, tail = 10 :: t) -> scan_rules (v ++ tail) = Some (TMultiline, length v).
Proof.
  intros v tail H Ht. pose proof (H tail Ht) as Hm. destruct (ml_ok_shape v H) as (t & ->).
  cbn [app] in *. rewrite scan_rules_cons. change (byte_class 116) with BIdent. rewrite Hm. reflexivity.
Qed.

Definition punct_of (k : tkind) : option N :=
  match k with
  | TLeftBracket => Some 91 | TRightBracket => Some 93 | TLeftParen => Some 40 | TRightParen => Some 41
  | TLeftCBracket => Some 123 | TRightCBracket => Some 125 | TSemicolon => Some 59 | TComma => Some 44
  | _ => None
  end.

Lemma scan_rules_punct : forall k c tail, punct_of k = Some c -> scan_rules (c :: tail) = Some (k, 1%nat).
Proof. intros [] c tail H; inversion H; subst; reflexivity. Qed.

Close Scope N_scope.

Definition hash_ok (v : bytes) : Prop :=
  exists r, v = 35%N :: r /\ forallb (fun c => negb (N.eqb c 10%N)) r = true.

Lemma scan_rules_hash : forall v tail,
  hash_ok v -> (tail = [] \/ exists t, tail = 10%N :: t) ->
  scan_rules (v ++ tail) = Some (THashComment, length v).
Proof.
  intros v tail (r & -> & Hr) Ht.
  assert (Hstop : match tail with [] => True | x :: _ => negb (N.eqb x 10%N) = false end).
  { destruct Ht as [->|(t & ->)]; [exact I|reflexivity]. }
  destruct (take_drop_stop _ r tail Hr Hstop) as (T & _).
  cbn [app]. rewrite scan_rules_cons. change (byte_class 35%N) with BHash. cbn [scan_hash with_kind]. rewrite T. reflexivity.
Qed.

(* the printer never writes a bracket comment *)
Definition tok_ok (k : tkind) (v : bytes) : Prop :=
  match k with
  | TString => exact_string v
  | TIdentifier => ident_ok v = true
  | TTag => tag_ok v = true
  | TNumber => num_ok v
  | TMultiline => ml_ok v
  | THashComment => hash_ok v
  | TBracketComment => False
  | _ => exists c, punct_of k = Some c /\ v = [c]
  end.

Definition after_ok (k : tkind) (tail : bytes) : Prop :=
  match k with
  | TIdentifier | TTag | TNumber => tail_delim tail
  | TMultiline | THashComment => tail = [] \/ exists t, tail = 10%N :: t
  | _ => True
  end.

Lemma scan_rules_tok : forall k v tail,
  tok_ok k v -> after_ok k tail ->
  scan_rules (v ++ tail) = Some (k, length v) /\ exists c r, v = c :: r /\ is_space c = false.
Proof.
  intros k v tail Hk Ha.
  destruct k; cbn [tok_ok after_ok] in *; try contradiction;
    try (destruct Hk as (c & Hp & ->); split; [apply scan_rules_punct; exact Hp|];
         exists c, []; split; [reflexivity|]; inversion Hp; subst; reflexivity).
  - split; [apply scan_rules_hash; assumption|].
    destruct Hk as (r & -> & _). exists 35%N, r. split; reflexivity.
  - split; [apply scan_rules_ml; assumption|].
    destruct (ml_ok_shape v Hk) as (t & ->). eexists _, _. split; reflexivity.
  - split; [apply scan_rules_exact; exact Hk|].
    destruct (exact_string_shape v Hk) as (b & -> & _). eexists _, _. split; reflexivity.
  - split; [apply scan_rules_ident; assumption|].
    destruct v as [|c r]; [discriminate|]. cbn in Hk. apply andb_true_iff in Hk as [A _].
    exists c, r. split; [reflexivity|]. apply (ident_start_word c A).
  - split; [apply scan_rules_tag; assumption|].
    destruct (tag_ok_shape v Hk) as (r & -> & _). eexists _, _. split; reflexivity.
  - split; [apply scan_rules_number; assumption|].
    destruct Hk as (ds & q & -> & Hne & Hd & _). destruct ds as [|c ds]; [congruence|].
    cbn [forallb] in Hd. apply andb_true_iff in Hd as [Hc _].
    exists c, (ds ++ q). split; [reflexivity|]. apply (byte_class_digit c Hc).
Qed.

Definition all_space (ws : bytes) : Prop := forallb is_space ws = true.

Lemma next_token_render : forall k v tail ws pos,
  tok_ok k v -> after_ok k tail -> all_space ws ->
  next_token pos (ws ++ v ++ tail) = LTok (mkTok k v (pos + length ws)) tail.
Proof.
  intros k v tail ws pos Hk Ha Hw.
  destruct (scan_rules_tok k v tail Hk Ha) as (Hs & c & r & -> & Hc). cbn [app] in Hs |- *.
  rewrite (next_token_skip pos ws c _ k _ Hw Hc Hs).
  change (c :: r ++ tail) with ((c :: r) ++ tail). rewrite firstn_length_app, skipn_length_app. reflexivity.
Qed.

Lemma next_token_end : forall pos ws, all_space ws -> next_token pos ws = LEnd.
Proof.
  intros pos ws Hw. unfold next_token.
  destruct (take_drop_stop is_space ws [] Hw I) as (_ & D). rewrite app_nil_r in D. rewrite D. reflexivity.
Qed.

(* the interface: PrintTree lays scripts out as lists of [ltok] and uses [lchain] / [lex_lrender] *)
Definition ltok := (bytes * tkind * bytes)%type.    (* white space, kind, text *)

Fixpoint lrender (l : list ltok) : bytes :=
  match l with [] => [] | (ws, k, v) :: r => ws ++ v ++ lrender r end.

(* [X]: what follows the sequence *)
Fixpoint lchain (l : list ltok) (X : bytes) : Prop :=
  match l with
  | [] => True
  | (ws, k, v) :: r => all_space ws /\ tok_ok k v /\ after_ok k (lrender r ++ X) /\ lchain r X
  end.

Definition ltoks (l : list ltok) : list token := map (fun x => mk (snd (fst x)) (snd x)) l.

Lemma lrender_app : forall a b, lrender (a ++ b) = lrender a ++ lrender b.
Proof. induction a as [|[[ws k] v] a IH]; intro b; cbn [app lrender]; [reflexivity|]. rewrite IH, !app_assoc. reflexivity. Qed.

Lemma ltoks_app : forall a b, ltoks (a ++ b) = ltoks a ++ ltoks b.
Proof. intros. unfold ltoks. apply map_app. Qed.

Lemma lchain_app : forall a b X, lchain a (lrender b ++ X) -> lchain b X -> lchain (a ++ b) X.
Proof.
  induction a as [|[[ws k] v] a IH]; intros b X Ha Hb; cbn [app lchain] in *; [exact Hb|].
  destruct Ha as (A & B & C & D). split; [exact A|]. split; [exact B|].
  split; [rewrite lrender_app, <- app_assoc; exact C|]. apply IH; assumption.
Qed.

Lemma lchain_pcons : forall w k c r X, all_space w -> punct_of k = Some c -> lchain r X -> lchain ((w, k, [c]) :: r) X.
Proof.
  intros w k c r X Hw Hp Hr. cbn [lchain]. split; [exact Hw|].
  split; [destruct k; inversion Hp; subst; eexists; split; reflexivity|].
  split; [destruct k; inversion Hp; exact I|exact Hr].
Qed.

Lemma lchain_punct : forall w k c X, all_space w -> punct_of k = Some c -> lchain [(w, k, [c])] X.
Proof. intros w k c X Hw Hp. exact (lchain_pcons w k c [] X Hw Hp I). Qed.

Lemma lchain_icons : forall w name r X,
  all_space w -> ident_ok name = true -> tail_delim (lrender r ++ X) -> lchain r X -> lchain ((w, TIdentifier, name) :: r) X.
Proof. intros. cbn [lchain after_ok tok_ok]. auto. Qed.

Lemma lex_all_lrender : forall l fuel pos wend,
  lchain l wend -> all_space wend -> length (lrender l ++ wend) < fuel ->
  exists toks, lex_all fuel pos (lrender l ++ wend) = (toks, None) /\ map strip_pos toks = ltoks l.
Proof.
  induction l as [|[[ws k] v] r IH]; intros fuel pos wend Hc Hw Hf; (destruct fuel as [|f]; [lia|]); cbn [lex_all].
  - cbn [lrender app]. rewrite (next_token_end pos wend Hw). exists []. auto.
  - cbn [lrender lchain] in *. destruct Hc as (Hws & Hk & Ha & Hr).
    rewrite <- !app_assoc in *.
    rewrite (next_token_render k v (lrender r ++ wend) ws pos Hk Ha Hws). cbn [t_pos t_val].
    assert (Hlen : length (lrender r ++ wend) < f).
    { rewrite !app_length in *. destruct (scan_rules_tok k v _ Hk Ha) as (_ & c & r0 & -> & _). cbn [length] in Hf. lia. }
    destruct (IH f (pos + length ws + length v) wend Hr Hw Hlen) as (toks & E & M).
    rewrite E. eexists. split; [reflexivity|]. cbn [map ltoks fst snd]. unfold ltoks in M. rewrite M. reflexivity.
Qed.

Theorem lex_lrender : forall l wend,
  lchain l wend -> all_space wend ->
  snd (lex (lrender l ++ wend)) = None /\ map strip_pos (fst (lex (lrender l ++ wend))) = ltoks l.
Proof.
  intros l wend Hc Hw. unfold lex.
  destruct (lex_all_lrender l (S (length (lrender l ++ wend))) 0 wend Hc Hw (Nat.lt_succ_diag_r _)) as (toks & E & M).
  rewrite E. auto.
Qed.

(* white space written after each token: [lex_render] is [lex_lrender] read through [lshift] *)
Definition rtok := (tkind * bytes * bytes)%type.    (* kind, text, the white space written after it *)

Fixpoint render (l : list rtok) : bytes :=
  match l with [] => [] | (k, v, ws) :: r => v ++ ws ++ render r end.

Fixpoint chain_ok (l : list rtok) : Prop :=
  match l with
  | [] => True
  | (k, v, ws) :: r => tok_ok k v /\ all_space ws /\ after_ok k (ws ++ render r) /\ chain_ok r
  end.

Definition rtoks (l : list rtok) : list token := map (fun x => mk (fst (fst x)) (snd (fst x))) l.

(* every white space moves over to the token after it; the last one is left at the end *)
Fixpoint lshift (w : bytes) (l : list rtok) : list ltok :=
  match l with [] => [] | (k, v, ws) :: r => (w, k, v) :: lshift ws r end.

Fixpoint wlast (w : bytes) (l : list rtok) : bytes :=
  match l with [] => w | (_, _, ws) :: r => wlast ws r end.

Lemma render_lshift : forall l w, w ++ render l = lrender (lshift w l) ++ wlast w l.
Proof.
  induction l as [|[[k v] ws] r IH]; intro w; cbn [render lshift wlast lrender app]; [apply app_nil_r|].
  rewrite <- !app_assoc, IH. reflexivity.
Qed.

Lemma ltoks_lshift : forall l w, ltoks (lshift w l) = rtoks l.
Proof.
  induction l as [|[[k v] ws] r IH]; intro w; [reflexivity|].
  unfold ltoks, rtoks in *. cbn [lshift map fst snd]. rewrite (IH ws). reflexivity.
Qed.

Lemma lchain_lshift : forall l w, all_space w -> chain_ok l -> lchain (lshift w l) (wlast w l) /\ all_space (wlast w l).
Proof.
  induction l as [|[[k v] ws] r IH]; intros w Hw Hc; cbn [lshift wlast lchain chain_ok] in *; [auto|].
  destruct Hc as (A & B & C & D). destruct (IH ws B D). rewrite <- render_lshift. auto.
Qed.

Theorem lex_render : forall l ws0,
  all_space ws0 -> chain_ok l ->
  snd (lex (ws0 ++ render l)) = None /\ map strip_pos (fst (lex (ws0 ++ render l))) = rtoks l.
Proof.
  intros l ws0 Hw Hc. rewrite render_lshift, <- (ltoks_lshift l ws0).
  destruct (lchain_lshift l ws0 Hw Hc). apply lex_lrender; assumption.
Qed.

Print Assumptions lex_render.
Print Assumptions lex_lrender.
