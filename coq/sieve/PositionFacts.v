(* PositionFacts.v — property C18 "parse errors point at the offending place", about the executable model
   (Lexer.v / Machine.v): (line, column) against an independent specification by LF-split lines; the lazy
   lexer/parser loop as a machine over the token list ([run_tokens]), so that a rejection is decided by a prefix of
   the tokens; the reported (pos, tlen) is a token of the text, the place of the lexical error, or the end. *)
From Coq Require Import String.
From Coq Require Import List NArith Bool Arith Lia.
From SV Require Import Bytes Lexer Tables ArgCheck Machine.
From SV Require Export MachineFacts.
Import ListNotations.
(* Bytes.v / Lexer.v open N_scope globally; numerals in this file are nat unless marked %N *)
Local Open Scope nat_scope.

(* [bytes] and [list N] are convertible but not syntactically equal: normalise before lia *)
Ltac blia := unfold bytes, byte in *; lia.

Definition cons_hd (c : N) (ls : list bytes) : list bytes :=
  match ls with
  | [] => [[c]]
  | s :: r => (c :: s) :: r
  end.

(* split at every LF; the LF bytes themselves are dropped *)
Fixpoint split_lf (l : bytes) : list bytes :=
  match l with
  | [] => [[]]
  | c :: t => if (c =? 10)%N then [] :: split_lf t else cons_hd c (split_lf t)
  end.

Fixpoint join_lf (ls : list bytes) : bytes :=
  match ls with
  | [] => []
  | x :: t => match t with
              | [] => x
              | _ :: _ => x ++ 10%N :: join_lf t
              end
  end.

Lemma split_lf_nonnil : forall l, split_lf l <> [].
Proof.
  destruct l as [|c t]; simpl.
  - discriminate.
  - destruct (c =? 10)%N; [discriminate|].
    destruct (split_lf t); discriminate.
Qed.

Lemma count_lf_cons : forall c t,
  count_lf (c :: t) = if (c =? 10)%N then S (count_lf t) else count_lf t.
Proof.
  intros c t. unfold count_lf. simpl. destruct (c =? 10)%N; reflexivity.
Qed.

Lemma count_lf_nil : count_lf [] = 0.
Proof. reflexivity. Qed.

Lemma split_lf_cons : forall c t,
  split_lf (c :: t) = if (c =? 10)%N then [] :: split_lf t else cons_hd c (split_lf t).
Proof. reflexivity. Qed.

Lemma split_lf_length : forall l, length (split_lf l) = S (count_lf l).
Proof.
  induction l as [|c t IH].
  - reflexivity.
  - rewrite count_lf_cons, split_lf_cons. destruct (c =? 10)%N.
    + simpl. rewrite IH. reflexivity.
    + destruct (split_lf t) as [|s r] eqn:E.
      * exfalso. apply (split_lf_nonnil t). exact E.
      * simpl in *. exact IH.
Qed.

Lemma split_lf_no_lf : forall l, Forall (fun s => ~ In 10%N s) (split_lf l).
Proof.
  induction l as [|c t IH].
  - simpl. constructor; [intros []|constructor].
  - rewrite split_lf_cons. destruct (c =? 10)%N eqn:E.
    + constructor; [intros []|exact IH].
    + apply N.eqb_neq in E.
      destruct (split_lf t) as [|s r]; simpl.
      * constructor; [|constructor]. intros [H|[]]. congruence.
      * inversion IH; subst. constructor; [|assumption].
        intros [H|H]; [congruence|auto].
Qed.

Lemma join_lf_cons : forall x t, t <> [] -> join_lf (x :: t) = x ++ 10%N :: join_lf t.
Proof. intros x [|y t] H; [contradiction|reflexivity]. Qed.

Lemma join_lf_cons_hd : forall c s r, join_lf ((c :: s) :: r) = c :: join_lf (s :: r).
Proof. intros c s [|y r]; reflexivity. Qed.

Lemma join_split_lf : forall l, join_lf (split_lf l) = l.
Proof.
  induction l as [|c t IH].
  - reflexivity.
  - rewrite split_lf_cons. destruct (c =? 10)%N eqn:E.
    + apply N.eqb_eq in E. subst c.
      rewrite join_lf_cons by apply split_lf_nonnil. rewrite IH. reflexivity.
    + destruct (split_lf t) as [|s r] eqn:E2.
      * exfalso. apply (split_lf_nonnil t). exact E2.
      * simpl cons_hd. rewrite join_lf_cons_hd. f_equal. exact IH.
Qed.

Lemma split_lf_nolf : forall x, ~ In 10%N x -> split_lf x = [x].
Proof.
  induction x as [|c t IH]; intros H.
  - reflexivity.
  - rewrite split_lf_cons. destruct (c =? 10)%N eqn:E.
    + apply N.eqb_eq in E. subst c. exfalso. apply H. left. reflexivity.
    + rewrite IH; [reflexivity|]. intros H1. apply H. right. exact H1.
Qed.

Lemma split_lf_app_lf : forall x rest,
  ~ In 10%N x -> split_lf (x ++ 10%N :: rest) = x :: split_lf rest.
Proof.
  induction x as [|c t IH]; intros rest H.
  - reflexivity.
  - rewrite <- app_comm_cons. rewrite split_lf_cons. destruct (c =? 10)%N eqn:E.
    + apply N.eqb_eq in E. subst c. exfalso. apply H. left. reflexivity.
    + rewrite IH; [reflexivity|]. intros H1. apply H. right. exact H1.
Qed.

(* one more segment than LF bytes, no LF inside a segment, and join_lf gives the text back: these determine
   split_lf, which is thereby a specification and not one more implementation *)
Theorem split_lf_unique : forall ls l,
  ls <> [] -> Forall (fun s => ~ In 10%N s) ls -> join_lf ls = l -> ls = split_lf l.
Proof.
  induction ls as [|x t IH]; intros l Hne Hall Hj.
  - contradiction.
  - inversion Hall as [|x' t' Hx Ht]; subst x' t'.
    destruct t as [|y t'].
    + simpl in Hj. subst l. symmetry. apply split_lf_nolf. exact Hx.
    + rewrite join_lf_cons in Hj by discriminate. subst l.
      rewrite split_lf_app_lf by exact Hx.
      f_equal. apply IH; [discriminate|exact Ht|reflexivity].
Qed.

Theorem lineno_split : forall text pos,
  lineno text pos = length (split_lf (firstn pos text)).
Proof. intros. unfold lineno. rewrite split_lf_length. reflexivity. Qed.

Theorem lineno_count : forall text pos, lineno text pos = S (count_lf (firstn pos text)).
Proof. reflexivity. Qed.

Lemma last_cons_nonnil : forall (A : Type) (x : A) r d, r <> [] -> last (x :: r) d = last r d.
Proof. intros A x [|y r] d H; [contradiction|reflexivity]. Qed.

Lemma since_lf_cons : forall c t acc,
  since_lf (c :: t) acc = if (c =? 10)%N then since_lf t 0 else since_lf t (S acc).
Proof. reflexivity. Qed.

Lemma since_lf_split : forall l acc,
  since_lf l acc =
  length (last (split_lf l) []) + (if Nat.eqb (count_lf l) 0 then acc else 0).
Proof.
  induction l as [|c t IH]; intros acc.
  - reflexivity.
  - rewrite since_lf_cons, count_lf_cons, split_lf_cons. destruct (c =? 10)%N.
    + rewrite IH. rewrite last_cons_nonnil by apply split_lf_nonnil.
      simpl Nat.eqb. cbv iota. destruct (Nat.eqb (count_lf t) 0); reflexivity.
    + rewrite IH. pose proof (split_lf_length t) as HL.
      destruct (split_lf t) as [|s r] eqn:E.
      * exfalso. apply (split_lf_nonnil t). exact E.
      * simpl cons_hd. destruct r as [|b r].
        -- simpl in HL. assert (Hc : count_lf t = 0) by lia. rewrite Hc. simpl. lia.
        -- simpl in HL. destruct (count_lf t) as [|n] eqn:Hc; [lia|].
           simpl Nat.eqb.
           rewrite (last_cons_nonnil _ (c :: s)) by discriminate.
           rewrite (last_cons_nonnil _ s) by discriminate. reflexivity.
Qed.

Theorem colno_split : forall text pos,
  colno text pos = S (length (last (split_lf (firstn pos text)) [])).
Proof.
  intros. unfold colno. rewrite since_lf_split.
  destruct (Nat.eqb (count_lf (firstn pos text)) 0); lia.
Qed.

(* offset of the first byte of segment number k (0-based): every earlier segment is followed
   by exactly one LF *)
Fixpoint line_offset (ls : list bytes) (k : nat) : nat :=
  match k, ls with
  | S k', s :: r => length s + 1 + line_offset r k'
  | _, _ => 0
  end.

Lemma address_gen : forall text pos, pos <= length text ->
  count_lf (firstn pos text) < length (split_lf text) /\
  length (last (split_lf (firstn pos text)) []) <=
    length (nth (count_lf (firstn pos text)) (split_lf text) []) /\
  pos = line_offset (split_lf text) (count_lf (firstn pos text))
        + length (last (split_lf (firstn pos text)) []).
Proof.
  induction text as [|a t IH]; intros pos Hpos.
  - simpl in Hpos. assert (pos = 0) by blia. subst pos. unfold count_lf. simpl. repeat split; blia.
  - destruct pos as [|p].
    + pose proof (split_lf_nonnil (a :: t)) as Hn.
      remember (split_lf (a :: t)) as X eqn:EX. clear EX.
      simpl firstn. rewrite count_lf_nil.
      destruct X as [|s r]; [contradiction|]. simpl. repeat split; blia.
    + simpl in Hpos. assert (Hp : p <= length t) by blia.
      destruct (IH p Hp) as (H1 & H2 & H3). clear IH.
      rewrite firstn_cons. rewrite count_lf_cons. rewrite !split_lf_cons.
      destruct (a =? 10)%N.
      * rewrite last_cons_nonnil by apply split_lf_nonnil.
        cbn [length nth line_offset]. repeat split; blia.
      * pose proof (split_lf_length (firstn p t)) as HL.
        destruct (split_lf t) as [|s r] eqn:Et;
          [exfalso; apply (split_lf_nonnil t); exact Et|].
        destruct (split_lf (firstn p t)) as [|s' r'] eqn:Ef;
          [exfalso; apply (split_lf_nonnil (firstn p t)); exact Ef|].
        cbn [cons_hd].
        destruct (count_lf (firstn p t)) as [|k'] eqn:Ek.
        -- simpl in HL. destruct r' as [|? ?]; [|simpl in HL; blia].
           cbn [last length nth line_offset] in *. repeat split; blia.
        -- destruct r' as [|b r']; [simpl in HL; blia|].
           rewrite (last_cons_nonnil _ (a :: s')) by discriminate.
           rewrite (last_cons_nonnil _ s') in H2, H3 by discriminate.
           cbn [length nth line_offset] in *. repeat split; blia.
Qed.

(* The address theorem: (lineno, colno) of an offset of the text designate, in the text split
   into LF-separated lines, line number L (1-based) and a column C (1-based) within or just
   after that line, and the offset is recovered from (L, C). *)
Theorem position_address : forall text pos, pos <= length text ->
  let ls := split_lf text in
  let L := lineno text pos in
  let C := colno text pos in
  1 <= L /\ 1 <= C /\
  L - 1 < length ls /\
  C - 1 <= length (nth (L - 1) ls []) /\
  pos = line_offset ls (L - 1) + (C - 1).
Proof.
  intros text pos Hpos ls L C. subst ls L C.
  rewrite colno_split. unfold lineno.
  destruct (address_gen text pos Hpos) as (H1 & H2 & H3).
  replace (S (count_lf (firstn pos text)) - 1) with (count_lf (firstn pos text)) by lia.
  replace (S (length (last (split_lf (firstn pos text)) [])) - 1)
    with (length (last (split_lf (firstn pos text)) [])) by lia.
  repeat split; try lia; assumption.
Qed.

(* line_start: offset just after the last LF among the first pos bytes, by a forward scan *)
Fixpoint line_start_aux (l : bytes) (n i cur : nat) : nat :=
  match n, l with
  | S n', c :: t => line_start_aux t n' (S i) (if (c =? 10)%N then S i else cur)
  | _, _ => cur
  end.
Definition line_start (text : bytes) (pos : nat) : nat := line_start_aux text pos 0 0.

Lemma line_start_aux_since : forall l n i cur, n <= length l -> cur <= i ->
  since_lf (firstn n l) (i - cur) = (i + n) - line_start_aux l n i cur /\
  cur <= line_start_aux l n i cur <= i + n.
Proof.
  induction l as [|c t IH]; intros n i cur Hn Hc.
  - simpl in Hn. assert (n = 0) by lia. subst n. simpl. lia.
  - destruct n as [|n'].
    + simpl. lia.
    + simpl in Hn. assert (Hn' : n' <= length t) by lia.
      rewrite firstn_cons, since_lf_cons. cbn [line_start_aux].
      destruct (c =? 10)%N.
      * destruct (IH n' (S i) (S i) Hn' (le_n _)) as (E & B).
        replace (S i - S i) with 0 in E by lia. rewrite E. lia.
      * assert (Hc' : cur <= S i) by lia.
        destruct (IH n' (S i) cur Hn' Hc') as (E & B).
        replace (S i - cur) with (S (i - cur)) in E by lia. rewrite E. lia.
Qed.

Lemma line_start_aux_lf : forall l n i cur, cur <= i ->
  let r := line_start_aux l n i cur in
  r = cur \/ (i < r /\ nth (r - 1 - i) l 0%N = 10%N).
Proof.
  induction l as [|c t IH]; intros n i cur Hc r; subst r.
  - destruct n; simpl; left; reflexivity.
  - destruct n as [|n'].
    + simpl. left. reflexivity.
    + cbn [line_start_aux]. destruct (c =? 10)%N eqn:E.
      * apply N.eqb_eq in E. subst c. right.
        destruct (IH n' (S i) (S i) (le_n _)) as [H | (H1 & H2)].
        -- rewrite H. split; [lia|]. replace (S i - 1 - i) with 0 by lia. reflexivity.
        -- split; [lia|].
           replace (line_start_aux t n' (S i) (S i) - 1 - i)
             with (S (line_start_aux t n' (S i) (S i) - 1 - S i)) by lia.
           exact H2.
      * assert (Hc' : cur <= S i) by lia.
        destruct (IH n' (S i) cur Hc') as [H | (H1 & H2)].
        -- left. exact H.
        -- right. split; [lia|].
           replace (line_start_aux t n' (S i) cur - 1 - i)
             with (S (line_start_aux t n' (S i) cur - 1 - S i)) by lia.
           exact H2.
Qed.

Lemma line_start_aux_nolf : forall l n i cur j,
  line_start_aux l n i cur <= j -> i <= j < i + n -> nth (j - i) l 0%N <> 10%N.
Proof.
  induction l as [|c t IH]; intros n i cur j Hr Hj.
  - destruct (j - i); simpl; discriminate.
  - destruct n as [|n']; [lia|].
    cbn [line_start_aux] in Hr.
    destruct (Nat.eq_dec j i) as [->|Hne].
    + replace (i - i) with 0 by lia. simpl.
      destruct (c =? 10)%N eqn:E.
      * exfalso.
        pose proof (line_start_aux_lf t n' (S i) (S i) (le_n _)) as H. simpl in H.
        destruct H as [H | (H & _)]; lia.
      * apply N.eqb_neq in E. exact E.
    + replace (j - i) with (S (j - S i)) by lia. simpl.
      eapply IH; [exact Hr|lia].
Qed.

(* column = 1 + distance to the line start; the line start is 0 or just after an LF; there
   is no LF between the line start and pos *)
Theorem colno_line_start : forall text pos, pos <= length text ->
  colno text pos = S (pos - line_start text pos) /\
  line_start text pos <= pos /\
  (line_start text pos = 0 \/ nth (line_start text pos - 1) text 0%N = 10%N) /\
  (forall i, line_start text pos <= i < pos -> nth i text 0%N <> 10%N).
Proof.
  intros text pos Hpos. unfold colno, line_start.
  destruct (line_start_aux_since text pos 0 0 Hpos (le_n _)) as (E & B).
  simpl in E. rewrite E. simpl in B.
  split; [reflexivity|]. split; [lia|]. split.
  - pose proof (line_start_aux_lf text pos 0 0 (le_n _)) as H. simpl in H.
    destruct H as [H | (H1 & H2)]; [left; exact H|right].
    rewrite Nat.sub_0_r in H2. exact H2.
  - intros i Hi.
    pose proof (line_start_aux_nolf text pos 0 0 i) as H.
    rewrite Nat.sub_0_r in H. apply H; lia.
Qed.

Lemma take_drop_while : forall f l, take_while f l ++ drop_while f l = l.
Proof.
  induction l as [|x t IH]; simpl; [reflexivity|].
  destruct (f x); simpl; [rewrite IH|]; reflexivity.
Qed.

Lemma drop_while_skipn : forall f l, drop_while f l = skipn (length (take_while f l)) l.
Proof.
  induction l as [|x t IH]; simpl; [reflexivity|].
  destruct (f x); simpl; [exact IH|reflexivity].
Qed.

Lemma drop_while_head : forall f l c r, drop_while f l = c :: r -> f c = false.
Proof.
  induction l as [|x t IH]; simpl; intros c r H; [discriminate|].
  destruct (f x) eqn:E; [eauto|]. inversion H; subst. exact E.
Qed.

Lemma skipn_add : forall (A : Type) b a (l : list A), skipn a (skipn b l) = skipn (b + a) l.
Proof.
  induction b as [|b IH]; intros a l; [reflexivity|].
  destruct l as [|x l]; simpl; [apply skipn_nil|apply IH].
Qed.

Lemma nth_hd_skipn : forall (A : Type) k (l : list A) d, nth k l d = hd d (skipn k l).
Proof.
  induction k as [|k IH]; intros [|x l] d; simpl; auto.
Qed.

Lemma firstn_length_firstn : forall (A : Type) n (l : list A),
  firstn (length (firstn n l)) l = firstn n l.
Proof.
  induction n as [|n IH]; intros [|x l]; simpl; try reflexivity. f_equal. apply IH.
Qed.

Lemma skipn_length_firstn : forall (A : Type) n (l : list A),
  skipn (length (firstn n l)) l = skipn n l.
Proof.
  induction n as [|n IH]; intros [|x l]; simpl; try reflexivity. apply IH.
Qed.

Lemma firstn_skipn_length : forall (A : Type) n (l : list A),
  length (firstn n l) + length (skipn n l) = length l.
Proof.
  intros A n l. rewrite <- app_length, firstn_skipn. reflexivity.
Qed.

Ltac scan_cases H :=
  repeat match type of H with
         | context [match ?x with _ => _ end] =>
             destruct x; cbv beta iota in H; try discriminate H
         end.
Ltac scan_pos H :=
  cbv delta [scan_hash scan_bracket_comment scan_multiline scan_string scan_tag scan_identifier scan_number]
      beta zeta in H;
  scan_cases H; inversion H; subst; simpl; lia.

Lemma orelse_some : forall (A : Type) (a b : option A) x,
  orelse a b = Some x -> a = Some x \/ b = Some x.
Proof. intros A [y|] b x H; simpl in H; auto. Qed.

Lemma with_kind_some : forall k o k' n, with_kind k o = Some (k', n) -> o = Some n.
Proof. intros k [m|] k' n H; simpl in H; inversion H; auto. Qed.

Lemma scan_single_some : forall c k l k' n, scan_single c k l = Some (k', n) -> n = 1.
Proof.
  intros c k [|x l] k' n H; simpl in H; [discriminate|].
  destruct (x =? c)%N; inversion H; reflexivity.
Qed.

(* every rule matches at least one byte: a scanner returns a successor, or the length of a non-empty
   run of digits *)
Lemma scan_rules_pos : forall l k n, scan_rules l = Some (k, n) -> 1 <= n.
Proof.
  intros l k n H. unfold scan_rules in H.
  repeat (apply orelse_some in H; destruct H as [H | H];
          [ first [ apply scan_single_some in H; lia
                  | apply with_kind_some in H; scan_pos H ]
          | ]).
  apply with_kind_some in H. scan_pos H.
Qed.

Lemma next_token_tok : forall pos l t after,
  next_token pos l = LTok t after ->
  exists k n, 1 <= n /\ skipn k l <> [] /\
    t_val t = firstn n (skipn k l) /\ t_pos t = pos + k /\ after = skipn n (skipn k l).
Proof.
  intros pos l t after. unfold next_token. cbv zeta.
  rewrite (drop_while_skipn is_space l).
  set (k := length (take_while is_space l)).
  remember (skipn k l) as l1 eqn:El1.
  destruct l1 as [|c l1']; [discriminate|].
  destruct (scan_rules (c :: l1')) as [[kd n]|] eqn:E; [|discriminate].
  intro H. inversion H; subst t after. exists k, n. rewrite <- El1. simpl.
  repeat split; auto; try discriminate. eapply scan_rules_pos; eauto.
Qed.

Lemma next_token_err : forall pos l p,
  next_token pos l = LErr p ->
  exists k, p = pos + k /\ k < length l /\ scan_rules (skipn k l) = None /\
            is_space (hd 0%N (skipn k l)) = false.
Proof.
  intros pos l p. unfold next_token. cbv zeta.
  pose proof (drop_while_head is_space l) as Hh.
  rewrite (drop_while_skipn is_space l) in *.
  set (k := length (take_while is_space l)) in *.
  pose proof (skipn_length k l) as HL.
  remember (skipn k l) as l1 eqn:El1.
  destruct l1 as [|c l1']; [discriminate|].
  destruct (scan_rules (c :: l1')) as [[kd n]|] eqn:E; [discriminate|].
  intro H. inversion H; subst p. exists k. rewrite <- El1. simpl in HL.
  repeat split; auto; try lia. simpl. eapply Hh. reflexivity.
Qed.

Lemma next_token_progress : forall pos l t after,
  next_token pos l = LTok t after ->
  length after < length l /\
  t_pos t + length (t_val t) + length after = pos + length l /\
  1 <= length (t_val t) /\ pos <= t_pos t /\
  exists k, t_val t = firstn (length (t_val t)) (skipn k l) /\ t_pos t = pos + k /\
            after = skipn (k + length (t_val t)) l.
Proof.
  intros pos l t after H.
  destruct (next_token_tok _ _ _ _ H) as (k & n & Hn & Hne & Hv & Hp & Ha).
  pose proof (skipn_length k l) as HL.
  pose proof (firstn_skipn_length _ n (skipn k l)) as HS.
  pose proof (firstn_length n (skipn k l)) as HF.
  rewrite <- Hv, <- Ha in HS. rewrite <- Hv in HF.
  assert (Hl1 : 1 <= length (skipn k l)).
  { destruct (skipn k l); [contradiction|simpl; lia]. }
  repeat split; try lia.
  exists k. repeat split; [| exact Hp |].
  - rewrite Hv. rewrite firstn_length_firstn. reflexivity.
  - rewrite Ha, Hv. rewrite <- skipn_add. rewrite skipn_length_firstn. reflexivity.
Qed.

Lemma lex_all_at : forall text fl pos rest toks err,
  lex_all fl pos rest = (toks, err) ->
  rest = skipn pos text -> pos <= length text -> length rest < fl ->
  (forall t, In t toks ->
     t_val t = firstn (length (t_val t)) (skipn (t_pos t) text) /\
     t_pos t + length (t_val t) <= length text /\ 1 <= length (t_val t)) /\
  (forall p, err = Some p ->
     p < length text /\ scan_rules (skipn p text) = None /\
     is_space (nth p text 0%N) = false) /\
  length toks <= length rest.
Proof.
  intros text. induction fl as [|f IH]; intros pos rest toks err Hl Hr Hp Hf; [lia|].
  cbn [lex_all] in Hl.
  pose proof (skipn_length pos text) as HL. rewrite <- Hr in HL.
  destruct (next_token pos rest) as [|t after|p0] eqn:E.
  - inversion Hl; subst toks err. split; [intros t []|]. split; [discriminate|apply Nat.le_0_l].
  - destruct (lex_all f (t_pos t + length (t_val t)) after) as [ts e] eqn:E2.
    inversion Hl; subst toks err. clear Hl.
    destruct (next_token_progress _ _ _ _ E) as (P1 & P2 & P3 & P4 & k & P5 & P6 & P7).
    assert (Hafter : after = skipn (t_pos t + length (t_val t)) text).
    { rewrite P7, Hr, skipn_add. f_equal. lia. }
    assert (Hpos' : t_pos t + length (t_val t) <= length text) by lia.
    assert (Hf' : length after < f) by lia.
    destruct (IH _ _ _ _ E2 Hafter Hpos' Hf') as (I1 & I2 & I3).
    split; [|split; [exact I2|cbn [length]; lia]].
    intros t' [<-|Hin]; [|apply I1; exact Hin].
    repeat split; try assumption.
    rewrite P5 at 1. rewrite Hr, skipn_add, P6. reflexivity.
  - inversion Hl; subst toks err. clear Hl. split; [intros t []|]. split; [|apply Nat.le_0_l].
    intros p Hp0. inversion Hp0; subst p0. clear Hp0.
    destruct (next_token_err _ _ _ E) as (k & K1 & K2 & K3 & K4).
    rewrite Hr, skipn_add in K3, K4. rewrite <- K1 in K3, K4.
    repeat split; [lia|exact K3|]. rewrite nth_hd_skipn. exact K4.
Qed.

Lemma lex_all_order : forall fl pos l toks err,
  lex_all fl pos l = (toks, err) ->
  (forall t, In t toks -> pos <= t_pos t) /\ (forall p, err = Some p -> pos <= p) /\
  (forall a t b, toks = a ++ t :: b ->
     (forall u, In u b -> t_pos t + length (t_val t) <= t_pos u) /\
     (forall p, err = Some p -> t_pos t + length (t_val t) <= p)).
Proof.
  induction fl as [|f IH]; intros pos l toks err H.
  - cbn in H. inversion H; subst. split; [intros t []|]. split; [intros p E; inversion E; lia|].
    intros a t b E. destruct a; discriminate.
  - cbn [lex_all] in H. destruct (next_token pos l) as [|t after|p0] eqn:E.
    + inversion H; subst. split; [intros t []|]. split; [discriminate|]. intros a t b E'. destruct a; discriminate.
    + destruct (lex_all f (t_pos t + length (t_val t)) after) as [ts e] eqn:E2. inversion H; subst toks err. clear H.
      destruct (next_token_progress _ _ _ _ E) as (_ & _ & P3 & P4 & _).
      destruct (IH _ _ _ _ E2) as (I1 & I2 & I3).
      split; [intros u [<-|Hu]; [exact P4|specialize (I1 u Hu); lia]|].
      split; [intros p Hp; specialize (I2 p Hp); lia|].
      intros a u b Eq. destruct a as [|x a]; cbn [app] in Eq; inversion Eq; subst.
      * split; [intros w Hw; apply (I1 w Hw)|intros p Hp; apply (I2 p Hp)].
      * apply (I3 a u b eq_refl).
    + inversion H; subst. split; [intros t []|].
      destruct (next_token_err _ _ _ E) as (k0 & K1 & _).
      split; [intros p Hp; inversion Hp; lia|]. intros a t b E'. destruct a; discriminate.
Qed.

Lemma lex_at : forall text,
  (forall t, In t (fst (lex text)) ->
     t_val t = firstn (length (t_val t)) (skipn (t_pos t) text) /\
     t_pos t + length (t_val t) <= length text /\ 1 <= length (t_val t)) /\
  (forall p, snd (lex text) = Some p ->
     p < length text /\ scan_rules (skipn p text) = None /\ is_space (nth p text 0%N) = false) /\
  length (fst (lex text)) <= length text.
Proof.
  intros text. unfold lex. destruct (lex_all (S (length text)) 0 text) as [toks err] eqn:E.
  apply (lex_all_at text _ _ _ _ _ E eq_refl (Nat.le_0_l _) (Nat.lt_succ_diag_r _)).
Qed.

Theorem lex_token_at : forall text t, In t (fst (lex text)) ->
  t_val t = firstn (length (t_val t)) (skipn (t_pos t) text) /\
  t_pos t + length (t_val t) <= length text /\ 1 <= length (t_val t).
Proof. intros text. apply (lex_at text). Qed.

Theorem lex_token_count : forall text, length (fst (lex text)) <= length text.
Proof. intros text. apply (lex_at text). Qed.

Theorem lex_error_at : forall text p, snd (lex text) = Some p ->
  p < length text /\ scan_rules (skipn p text) = None /\ is_space (nth p text 0%N) = false.
Proof. intros text. apply (lex_at text). Qed.

(* Parser.parse over the token list [toks] that the lexer would deliver ([err]: where it would fail; [endpos]: the
   length of the text): the same loop as run_loop, the lexing taken out.  A rewound token stays at the head. *)
Fixpoint run_tokens (fuel : nat) (T : tables) (toks : list token) (err : option nat)
         (endpos lastlen : nat) (st : pstate) : outcome :=
  match fuel with
  | O => OutOfFuel
  | S f =>
      match toks with
      | [] => match err with
              | None => finish st endpos lastlen
              | Some p => Reject EUnknownToken p lastlen
              end
      | t :: ts =>
          match process T st t with
          | MTrue st' => run_tokens f T ts err endpos (length (t_val t)) st'
          | MRewind st' => run_tokens f T (t :: ts) err endpos (length (t_val t)) st'
          | MFalse _ => Reject EUnexpectedToken (t_pos t) (length (t_val t))
          | MErr e => Reject e (t_pos t) (length (t_val t))
          | MCrash => Crash (t_pos t)
          end
      end
  end.

(* one iteration of run_loop once the token is known *)
Definition rl_step (f : nat) (T : tables) (rest : bytes) (st : pstate)
           (t : token) (after : bytes) : outcome :=
  match process T st t with
  | MTrue st' => run_loop f T (t_pos t + length (t_val t)) after (length (t_val t)) None st'
  | MRewind st' => run_loop f T (t_pos t) rest (length (t_val t)) (Some (t, after)) st'
  | MFalse _ => Reject EUnexpectedToken (t_pos t) (length (t_val t))
  | MErr e => Reject e (t_pos t) (length (t_val t))
  | MCrash => Crash (t_pos t)
  end.

Lemma run_loop_S : forall f T pos rest lastlen pending st,
  run_loop (S f) T pos rest lastlen pending st =
  match pending with
  | Some (t, after) => rl_step f T rest st t after
  | None =>
      match next_token pos rest with
      | LEnd => finish st (pos + length rest) lastlen
      | LErr p => Reject EUnknownToken p lastlen
      | LTok t after => rl_step f T rest st t after
      end
  end.
Proof. reflexivity. Qed.

Lemma run_tokens_S_cons : forall f T t ts err endpos lastlen st,
  run_tokens (S f) T (t :: ts) err endpos lastlen st =
  match process T st t with
  | MTrue st' => run_tokens f T ts err endpos (length (t_val t)) st'
  | MRewind st' => run_tokens f T (t :: ts) err endpos (length (t_val t)) st'
  | MFalse _ => Reject EUnexpectedToken (t_pos t) (length (t_val t))
  | MErr e => Reject e (t_pos t) (length (t_val t))
  | MCrash => Crash (t_pos t)
  end.
Proof. reflexivity. Qed.

Lemma run_tokens_S_nil : forall f T err endpos lastlen st,
  run_tokens (S f) T [] err endpos lastlen st =
  match err with
  | None => finish st endpos lastlen
  | Some p => Reject EUnknownToken p lastlen
  end.
Proof. reflexivity. Qed.

(* In run_loop, when pending = Some (t, after), the pos/rest arguments are stale and
   irrelevant: the statement for that case quantifies over arbitrary pos0, rest0. *)
Lemma run_loop_tokens : forall T N fuel st lastlen,
  (forall fl pos rest toks err,
     lex_all fl pos rest = (toks, err) -> length rest < fl -> pos + length rest = N ->
     run_loop fuel T pos rest lastlen None st = run_tokens fuel T toks err N lastlen st) /\
  (forall fl t after toks err pos0 rest0,
     lex_all fl (t_pos t + length (t_val t)) after = (toks, err) ->
     length after < fl -> t_pos t + length (t_val t) + length after = N ->
     run_loop fuel T pos0 rest0 lastlen (Some (t, after)) st =
     run_tokens fuel T (t :: toks) err N lastlen st).
Proof.
  intros T N. induction fuel as [|f IH]; intros st lastlen.
  - split; intros; reflexivity.
  - assert (Hstep : forall fl t after toks err rest0,
              lex_all fl (t_pos t + length (t_val t)) after = (toks, err) ->
              length after < fl -> t_pos t + length (t_val t) + length after = N ->
              rl_step f T rest0 st t after =
              run_tokens (S f) T (t :: toks) err N lastlen st).
    { intros fl t after toks err rest0 Hl Hf HN.
      rewrite run_tokens_S_cons. unfold rl_step.
      destruct (process T st t) as [st'|st'|st'|e|]; try reflexivity.
      - destruct (IH st' (length (t_val t))) as (I1 & _). eapply I1; eauto.
      - destruct (IH st' (length (t_val t))) as (_ & I2). eapply I2; eauto. }
    split.
    + intros fl pos rest toks err Hl Hf HN.
      destruct fl as [|fl']; [lia|]. cbn [lex_all] in Hl.
      rewrite run_loop_S.
      destruct (next_token pos rest) as [|t after|p0] eqn:E.
      * inversion Hl; subst toks err. rewrite run_tokens_S_nil, HN. reflexivity.
      * destruct (lex_all fl' (t_pos t + length (t_val t)) after) as [ts e] eqn:E2.
        inversion Hl; subst toks err. clear Hl.
        destruct (next_token_progress _ _ _ _ E) as (P1 & P2 & _).
        eapply Hstep; [exact E2|lia|lia].
      * inversion Hl; subst toks err. rewrite run_tokens_S_nil. reflexivity.
    + intros fl t after toks err pos0 rest0 Hl Hf HN.
      rewrite run_loop_S. eapply Hstep; eauto.
Qed.

Theorem parse_run_tokens : forall T text,
  parse T text =
  run_tokens (2 * length text + 2) T (fst (lex text)) (snd (lex text)) (length text) 0 p_init.
Proof.
  intros T text. unfold parse, lex.
  destruct (lex_all (S (length text)) 0 text) as [toks err] eqn:E.
  destruct (run_loop_tokens T (length text) (2 * length text + 2) p_init 0) as (H & _).
  cbn [fst snd]. eapply H; [exact E|lia|lia].
Qed.

Lemma run_tokens_more : forall T f f' toks err endpos ll st o,
  f <= f' -> run_tokens f T toks err endpos ll st = o -> o <> OutOfFuel ->
  run_tokens f' T toks err endpos ll st = o.
Proof.
  intros T f. induction f as [|f IH]; intros f' toks err endpos ll st o Hle H Ho; [cbn in H; congruence|].
  destruct f' as [|f']; [lia|]. cbn [run_tokens] in *.
  destruct toks as [|t ts]; [exact H|].
  destruct (process T st t) as [s1|s1|s1|e|]; try exact H.
  - apply (IH f' ts err endpos (length (t_val t)) s1 o ltac:(lia) H Ho).
  - apply (IH f' (t :: ts) err endpos (length (t_val t)) s1 o ltac:(lia) H Ho).
Qed.

Lemma run_tokens_lastlen : forall T fuel toks err endpos ll1 ll2 st,
  match run_tokens fuel T toks err endpos ll1 st with
  | Accept r => run_tokens fuel T toks err endpos ll2 st = Accept r
  | _ => True
  end.
Proof.
  intros T [|f] toks err endpos ll1 ll2 st; [exact I|]. destruct toks as [|t ts].
  - rewrite !run_tokens_S_nil. destruct err; [exact I|]. rewrite !finish_spec.
    destruct (p_brackets st), (p_expected st), (p_stack st); try exact I. reflexivity.
  - rewrite !run_tokens_S_cons.
    destruct (match process T st t with MTrue _ => _ | _ => _ end); try exact I. reflexivity.
Qed.

(* the same machine on a prefix of the token list: None = the tokens ran out before an outcome *)
Fixpoint run_prefix (fuel : nat) (T : tables) (toks : list token) (lastlen : nat)
         (st : pstate) : option outcome :=
  match fuel with
  | O => Some OutOfFuel
  | S f =>
      match toks with
      | [] => None
      | t :: ts =>
          match process T st t with
          | MTrue st' => run_prefix f T ts (length (t_val t)) st'
          | MRewind st' => run_prefix f T (t :: ts) (length (t_val t)) st'
          | MFalse _ => Some (Reject EUnexpectedToken (t_pos t) (length (t_val t)))
          | MErr e => Some (Reject e (t_pos t) (length (t_val t)))
          | MCrash => Some (Crash (t_pos t))
          end
      end
  end.

Lemma run_prefix_S_cons : forall f T t ts lastlen st,
  run_prefix (S f) T (t :: ts) lastlen st =
  match process T st t with
  | MTrue st' => run_prefix f T ts (length (t_val t)) st'
  | MRewind st' => run_prefix f T (t :: ts) (length (t_val t)) st'
  | MFalse _ => Some (Reject EUnexpectedToken (t_pos t) (length (t_val t)))
  | MErr e => Some (Reject e (t_pos t) (length (t_val t)))
  | MCrash => Some (Crash (t_pos t))
  end.
Proof. reflexivity. Qed.

Lemma run_prefix_tokens : forall fuel T pre lastlen st o,
  run_prefix fuel T pre lastlen st = Some o ->
  forall more err endpos, run_tokens fuel T (pre ++ more) err endpos lastlen st = o.
Proof.
  induction fuel as [|f IH]; intros T pre lastlen st o H more err endpos.
  - simpl in H. inversion H. reflexivity.
  - destruct pre as [|t ts]; [discriminate H|].
    rewrite run_prefix_S_cons in H. rewrite <- app_comm_cons, run_tokens_S_cons.
    destruct (process T st t) as [st'|st'|st'|e|].
    + apply IH. exact H.
    + rewrite app_comm_cons. apply IH. exact H.
    + inversion H. reflexivity.
    + inversion H. reflexivity.
    + inversion H. reflexivity.
Qed.

Lemma run_prefix_fuel : forall fuel T pre lastlen st o,
  run_prefix fuel T pre lastlen st = Some o -> o <> OutOfFuel ->
  forall fuel',
    (fuel <= fuel' -> run_prefix fuel' T pre lastlen st = Some o) /\
    (run_prefix fuel' T pre lastlen st = Some o \/
     run_prefix fuel' T pre lastlen st = Some OutOfFuel).
Proof.
  induction fuel as [|f IH]; intros T pre lastlen st o H Ho fuel'.
  - simpl in H. inversion H. congruence.
  - destruct fuel' as [|f'].
    + split; [lia|]. right. reflexivity.
    + destruct pre as [|t ts]; [discriminate H|].
      rewrite run_prefix_S_cons in H. rewrite run_prefix_S_cons.
      destruct (process T st t) as [st'|st'|st'|e|].
      * destruct (IH _ _ _ _ _ H Ho f') as (I1 & I2). split; [intro; apply I1; lia|exact I2].
      * destruct (IH _ _ _ _ _ H Ho f') as (I1 & I2). split; [intro; apply I1; lia|exact I2].
      * split; [intro|left]; exact H.
      * split; [intro|left]; exact H.
      * split; [intro|left]; exact H.
Qed.

Lemma run_prefix_mono : forall fuel fuel' T pre lastlen st o,
  run_prefix fuel T pre lastlen st = Some o -> o <> OutOfFuel -> fuel <= fuel' ->
  run_prefix fuel' T pre lastlen st = Some o.
Proof.
  intros fuel fuel' T pre lastlen st o H Ho Hle.
  destruct (run_prefix_fuel _ _ _ _ _ _ H Ho fuel') as (I & _). exact (I Hle).
Qed.

Lemma run_prefix_any_fuel : forall fuel fuel' T pre lastlen st o,
  run_prefix fuel T pre lastlen st = Some o -> o <> OutOfFuel ->
  run_prefix fuel' T pre lastlen st = Some o \/
  run_prefix fuel' T pre lastlen st = Some OutOfFuel.
Proof.
  intros fuel fuel' T pre lastlen st o H Ho.
  destruct (run_prefix_fuel _ _ _ _ _ _ H Ho fuel') as (_ & I). exact I.
Qed.

(* The hypothesis o <> OutOfFuel of run_prefix_any_fuel cannot be dropped: with no fuel the
   answer is OutOfFuel, with one unit the (unknown) command is rejected. *)
Example run_prefix_any_fuel_needs_proper_outcome :
  let t := mkTok TIdentifier [120%N] 0 in
  run_prefix 0 [] [t] 0 p_init = Some OutOfFuel /\
  run_prefix 1 [] [t] 0 p_init = Some (Reject (EUnknownCommand [120%N]) 0 1).
Proof. vm_compute. split; reflexivity. Qed.

(* the errors raised while processing a token are never the lexer error nor the two end-of-script errors.  Each
   lemma follows the definition of its function case by case; a leaf is an error literal, an error of a callee
   (hint database tokerr, one lemma per callee) or the continuation of lift_cna. *)

Definition token_error (e : perr) : Prop :=
  e <> EUnknownToken /\ e <> EEndExpected /\ e <> EEndUnfinished.

(* case analysis on every match of H, innermost scrutinee first, remembering equations *)
Ltac err_cases H :=
  cbv beta iota zeta in H;
  repeat match type of H with
         | context [match ?x with _ => _ end] =>
             lazymatch x with
             | context [match _ with _ => _ end] => fail
             | _ => idtac
             end;
             destruct x eqn:?; cbv beta iota zeta in H; try discriminate H
         end.

Lemma lift_cna_err : forall r st k e,
  lift_cna r st k = MErr e -> r = CnaErr e \/ exists st', k st' = MErr e.
Proof.
  intros [f slot| |e0|] st k e H; simpl in H; try discriminate H.
  - right. eexists. exact H.
  - left. inversion H. reflexivity.
Qed.

Create HintDb tokerr.

Ltac err_leaf H :=
  first
    [ discriminate H
    | solve [eauto with tokerr]
    | solve [inversion H; subst;
             first [ solve [eauto with tokerr]
                   | unfold token_error; repeat split; discriminate ]]
    | solve [apply lift_cna_err in H; destruct H as [H | [? H]]; cbv beta in H;
             first [ discriminate H | solve [eauto with tokerr] ]] ].

Lemma is_valid_value_err : forall a v ce loaded e,
  is_valid_value a v ce loaded = VRaise e -> token_error e.
Proof.
  intros a v ce loaded e H. unfold is_valid_value in H. err_cases H; err_leaf H.
Qed.
#[local] Hint Resolve is_valid_value_err : tokerr.

Lemma cna_scan_err : forall defs f pos t v add ce loaded e,
  cna_scan f defs pos t v add ce loaded = CnaErr e -> token_error e.
Proof.
  induction defs as [|ca rest IH]; intros f pos t v add ce loaded e H.
  - discriminate H.
  - cbn [cna_scan] in H. err_cases H; err_leaf H.
Qed.
#[local] Hint Resolve cna_scan_err : tokerr.

Lemma check_next_arg_err : forall f t v add ce loaded e,
  check_next_arg f t v add ce loaded = CnaErr e -> token_error e.
Proof.
  intros f t v add ce loaded e H. unfold check_next_arg in H. err_cases H; err_leaf H.
Qed.
#[local] Hint Resolve check_next_arg_err : tokerr.

Lemma pop_bracket_err : forall st b e, pop_bracket st b = inr e -> token_error e.
Proof.
  intros st b e H. destruct (pop_bracket_inr _ _ _ H) as [-> | ->]; repeat split; discriminate.
Qed.
#[local] Hint Resolve pop_bracket_err : tokerr.

Lemma get_command_instance_err : forall T loaded name e,
  get_command_instance T loaded name = inr e -> token_error e.
Proof.
  intros T loaded name e H. unfold get_command_instance in H. err_cases H; err_leaf H.
Qed.
#[local] Hint Resolve get_command_instance_err : tokerr.

Lemma up_err : forall st e, up st = MErr e -> token_error e.
Proof.
  intros st e H. pose proof (up_cases st) as U. rewrite H in U. subst e. repeat split; discriminate.
Qed.
#[local] Hint Resolve up_err : tokerr.

Lemma cc_loop_err : forall rest cur st e, cc_loop cur rest st = MErr e -> token_error e.
Proof.
  induction rest as [|parent rest' IH]; intros cur st e H.
  - discriminate H.
  - cbn [cc_loop] in H. err_cases H; err_leaf H.
Qed.
#[local] Hint Resolve cc_loop_err : tokerr.

Lemma check_completion_err : forall st b e, check_completion st b = MErr e -> token_error e.
Proof.
  intros st b e H. unfold check_completion in H. err_cases H; err_leaf H.
Qed.
#[local] Hint Resolve check_completion_err : tokerr.

Lemma complete_cb_err : forall st e, complete_cb st = MErr e -> token_error e.
Proof.
  intros st e H. pose proof (complete_cb_cases st) as C. rewrite H in C. destruct C.
Qed.
#[local] Hint Resolve complete_cb_err : tokerr.

Lemma m_stringlist_err : forall st t e, m_stringlist st t = MErr e -> token_error e.
Proof.
  intros st t e H. unfold m_stringlist in H. err_cases H; err_leaf H.
Qed.
#[local] Hint Resolve m_stringlist_err : tokerr.

Lemma m_argument_err : forall st t e, m_argument st t = MErr e -> token_error e.
Proof.
  intros st t e H. unfold m_argument in H. err_cases H; err_leaf H.
Qed.
#[local] Hint Resolve m_argument_err : tokerr.

Lemma m_arguments_err : forall T st t e, m_arguments T st t = MErr e -> token_error e.
Proof.
  intros T st t e H. rewrite m_arguments_eq in H. unfold m_arguments_test, m_arguments_default in H. err_cases H; err_leaf H.
Qed.
#[local] Hint Resolve m_arguments_err : tokerr.

Lemma m_command_err : forall T st t e, m_command T st t = MErr e -> token_error e.
Proof.
  intros T st t e H. rewrite m_command_eq in H. unfold m_command_none, on_false, after_false in H. err_cases H; err_leaf H.
Qed.
#[local] Hint Resolve m_command_err : tokerr.

Theorem process_err : forall T st t e, process T st t = MErr e -> token_error e.
Proof.
  intros T st t e H. rewrite process_eq in H. unfold expect_then in H. err_cases H; err_leaf H.
Qed.

Lemma run_prefix_reject_token : forall fuel T pre lastlen st e pos tlen,
  run_prefix fuel T pre lastlen st = Some (Reject e pos tlen) ->
  exists t, In t pre /\ t_pos t = pos /\ tlen = length (t_val t) /\ token_error e.
Proof.
  induction fuel as [|f IH]; intros T pre lastlen st e pos tlen H.
  - discriminate H.
  - destruct pre as [|t ts]; [discriminate H|].
    rewrite run_prefix_S_cons in H.
    destruct (process T st t) as [st'|st'|st'|e0|] eqn:E.
    + destruct (IH _ _ _ _ _ _ _ H) as (t' & Hin & R). exists t'. split; [right; exact Hin|exact R].
    + destruct (IH _ _ _ _ _ _ _ H) as (t' & Hin & R). exists t'. split; [exact Hin|exact R].
    + inversion H; subst. exists t. split; [left; reflexivity|].
      repeat split; discriminate.
    + inversion H; subst. exists t. split; [left; reflexivity|].
      repeat split; try reflexivity; eapply process_err; exact E.
    + discriminate H.
Qed.

Lemma run_tokens_reject : forall fuel T toks err endpos lastlen st e pos tlen,
  run_tokens fuel T toks err endpos lastlen st = Reject e pos tlen ->
  (e = EUnknownToken /\ err = Some pos) \/
  ((e = EEndExpected \/ e = EEndUnfinished) /\ pos = endpos /\ err = None) \/
  (exists k, k <= length toks /\
             run_prefix fuel T (firstn k toks) lastlen st = Some (Reject e pos tlen)).
Proof.
  induction fuel as [|f IH]; intros T toks err endpos lastlen st e pos tlen H.
  - discriminate H.
  - destruct toks as [|t ts].
    + rewrite run_tokens_S_nil in H. destruct err as [p|].
      * inversion H; subst. left. auto.
      * apply finish_reject in H. destruct H as (He & Hp). right. left. auto.
    + rewrite run_tokens_S_cons in H.
      destruct (process T st t) as [st'|st'|st'|e0|] eqn:E.
      * destruct (IH _ _ _ _ _ _ _ _ _ H) as [C1 | [C2 | (k & Hk & R)]]; auto.
        right. right. exists (S k). split; [simpl; lia|].
        simpl firstn. rewrite run_prefix_S_cons, E. exact R.
      * destruct (IH _ _ _ _ _ _ _ _ _ H) as [C1 | [C2 | (k & Hk & R)]]; auto.
        right. right. destruct k as [|k'].
        -- simpl firstn in R. destruct f; discriminate R.
        -- exists (S k'). split; [exact Hk|].
           simpl firstn in *. rewrite run_prefix_S_cons, E. exact R.
      * right. right. exists 1. split; [simpl; lia|].
        simpl firstn. rewrite run_prefix_S_cons, E. f_equal. exact H.
      * right. right. exists 1. split; [simpl; lia|].
        simpl firstn. rewrite run_prefix_S_cons, E. f_equal. exact H.
      * discriminate H.
Qed.

(* "the parse of [text] is rejected with (e, pos, tlen) after reading at most its first k
   tokens" *)
Definition rejects_within (T : tables) (text : bytes) (k : nat)
           (e : perr) (pos tlen : nat) : Prop :=
  run_prefix (2 * length text + 2) T (firstn k (fst (lex text))) 0 p_init
  = Some (Reject e pos tlen).

Theorem rejects_within_parse : forall T text k e pos tlen,
  rejects_within T text k e pos tlen -> parse T text = Reject e pos tlen.
Proof.
  intros T text k e pos tlen H. rewrite parse_run_tokens.
  rewrite <- (firstn_skipn k (fst (lex text))).
  eapply run_prefix_tokens. exact H.
Qed.

Theorem parse_reject_classify : forall T text e pos tlen,
  parse T text = Reject e pos tlen ->
  (e = EUnknownToken /\ snd (lex text) = Some pos) \/
  ((e = EEndExpected \/ e = EEndUnfinished) /\ pos = length text /\ snd (lex text) = None) \/
  (exists k, k <= length (fst (lex text)) /\ rejects_within T text k e pos tlen).
Proof.
  intros T text e pos tlen H. rewrite parse_run_tokens in H.
  apply run_tokens_reject in H. exact H.
Qed.

(* Two texts whose token streams agree on the first k tokens (same kind, value and position:
   equality of [token] records): if the first is rejected within these k tokens, the second
   gets the same (error, position, length).  The fuel of [parse] is 2 * length + 2 and
   differs between the two texts; the model really can run out of fuel (the Python parser
   can loop forever on a rewinding token, see [parse_can_run_out_of_fuel] below), so for a
   shorter second text the OutOfFuel alternative cannot be excluded at this level (that
   would need a bound on the number of rewinds per token, a property of the tables). *)
Theorem prefix_determinism : forall T text1 text2 k e pos tlen,
  firstn k (fst (lex text1)) = firstn k (fst (lex text2)) ->
  rejects_within T text1 k e pos tlen ->
  parse T text1 = Reject e pos tlen /\
  (parse T text2 = Reject e pos tlen \/ parse T text2 = OutOfFuel) /\
  (length text1 <= length text2 -> parse T text2 = Reject e pos tlen).
Proof.
  intros T text1 text2 k e pos tlen Heq H.
  split; [eapply rejects_within_parse; exact H|].
  unfold rejects_within in H. rewrite Heq in H.
  assert (Ho : Reject e pos tlen <> OutOfFuel) by discriminate.
  destruct (run_prefix_fuel _ _ _ _ _ _ H Ho (2 * length text2 + 2)) as (I1 & I2).
  split.
  - destruct I2 as [I2|I2]; [left|right];
      rewrite parse_run_tokens; rewrite <- (firstn_skipn k (fst (lex text2)));
      eapply run_prefix_tokens; exact I2.
  - intros Hle. eapply rejects_within_parse. unfold rejects_within. apply I1. lia.
Qed.

(* The model can run out of fuel: an action without arguments whose class has
   non_deterministic_args and the hasflag reassign hook, followed by "{", rewinds the lexer
   forever without changing the state (text = "x{"). *)
Example parse_can_run_out_of_fuel :
  let d := mkCmd [120%N] CAction [] false false true None None None HNone RHasflag in
  parse [([120%N], d)] [120%N; 123%N] = OutOfFuel.
Proof. vm_compute. reflexivity. Qed.

Lemma In_firstn : forall (A : Type) k (l : list A) x, In x (firstn k l) -> In x l.
Proof.
  intros A k l x H. rewrite <- (firstn_skipn k l). apply in_or_app. left. exact H.
Qed.

(* strong form: the three cases are mutually exclusive (by the error kind), the token case
   gives the slice of the text the error points at *)
Theorem reject_position_strong : forall T text e pos tlen,
  parse T text = Reject e pos tlen ->
  (e = EUnknownToken /\ snd (lex text) = Some pos /\ pos < length text /\
   scan_rules (skipn pos text) = None /\ is_space (nth pos text 0%N) = false) \/
  ((e = EEndExpected \/ e = EEndUnfinished) /\ pos = length text /\ snd (lex text) = None) \/
  (token_error e /\
   exists t, In t (fst (lex text)) /\ t_pos t = pos /\ tlen = length (t_val t) /\
             t_val t = firstn tlen (skipn pos text) /\
             pos + tlen <= length text /\ 1 <= tlen).
Proof.
  intros T text e pos tlen H.
  destruct (parse_reject_classify _ _ _ _ _ H) as [(He & Hs) | [C2 | (k & Hk & R)]].
  - left. destruct (lex_error_at _ _ Hs) as (L1 & L2 & L3). auto.
  - right. left. exact C2.
  - right. right. unfold rejects_within in R.
    destruct (run_prefix_reject_token _ _ _ _ _ _ _ _ R) as (t & Hin & Hp & Hl & He).
    split; [exact He|]. exists t.
    apply In_firstn in Hin.
    destruct (lex_token_at _ _ Hin) as (A1 & A2 & A3).
    subst pos tlen. repeat split; assumption.
Qed.

Theorem reject_position : forall T text e pos tlen,
  parse T text = Reject e pos tlen ->
  (e = EUnknownToken /\ snd (lex text) = Some pos /\ pos < length text /\
   scan_rules (skipn pos text) = None) \/
  ((e = EEndExpected \/ e = EEndUnfinished) /\ pos = length text) \/
  (exists t, In t (fst (lex text)) /\ t_pos t = pos /\ tlen = length (t_val t)).
Proof.
  intros T text e pos tlen H.
  destruct (reject_position_strong _ _ _ _ _ H)
    as [(A & B & C & D & _) | [(A & B & _) | (_ & t & A & B & C & _)]].
  - left. auto.
  - right. left. auto.
  - right. right. exists t. auto.
Qed.

(* (a) and (b) combined through error_pos: the reported (line, column) is the address, in the
   LF-split text, of a byte offset pos <= length text which is the start of a token of the
   text of the reported length, the place of the lexical error, or the end of the text. *)
Theorem error_pos_address : forall T text e pos tlen,
  parse T text = Reject e pos tlen ->
  let ls := split_lf text in
  let L := lineno text pos in
  let C := colno text pos in
  error_pos text (parse T text) = Some (L, C, tlen) /\
  pos <= length text /\
  L - 1 < length ls /\
  C - 1 <= length (nth (L - 1) ls []) /\
  pos = line_offset ls (L - 1) + (C - 1) /\
  C = S (pos - line_start text pos).
Proof.
  intros T text e pos tlen H ls L C. subst ls L C.
  assert (Hpos : pos <= length text).
  { destruct (reject_position_strong _ _ _ _ _ H)
      as [(_ & _ & A & _) | [(_ & A & _) | (_ & t & _ & _ & _ & _ & A & _)]]; lia. }
  destruct (position_address text pos Hpos) as (_ & _ & A1 & A2 & A3).
  destruct (colno_line_start text pos Hpos) as (B1 & _).
  rewrite H. simpl error_pos. repeat split; assumption.
Qed.

Lemma reject_line_bounds : forall T text e pos tlen,
  parse T text = Reject e pos tlen ->
  pos <= length text /\ 1 <= lineno text pos /\ lineno text pos <= 1 + count_lf text.
Proof.
  intros T text e pos tlen H.
  destruct (error_pos_address T text e pos tlen H) as (_ & Hpos & _).
  split; [exact Hpos|]. unfold lineno. split; [lia|].
  assert (count_lf (firstn pos text) <= count_lf text).
  { rewrite <- (firstn_skipn pos text) at 2. unfold count_lf. rewrite filter_app, app_length. lia. }
  lia.
Qed.

Print Assumptions split_lf_unique.
Print Assumptions position_address.
Print Assumptions colno_line_start.
Print Assumptions lex_token_at.
Print Assumptions lex_error_at.
Print Assumptions parse_run_tokens.
Print Assumptions process_err.
Print Assumptions parse_reject_classify.
Print Assumptions prefix_determinism.
Print Assumptions reject_position_strong.
Print Assumptions reject_position.
Print Assumptions error_pos_address.
