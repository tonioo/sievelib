(* PrintTree.v — the print/parse round trip on trees (C04).

   The layout Command.tosieve uses (one command per line, four spaces per nesting level, ", " inside lists) is
   lexed back as exactly the tokens of the script, so by [CompleteTree.parse_script] its text parses to the tree
   of the script; the model of Command.tosieve (Printer.v) produces that layout for the trees of scripts whose
   arguments are written in definition order.  The same holds with the hash comments and the extra white space
   that FiltersSet.tosieve writes before top-level commands.
   [sepw] (the section parameter): the white space written after the commas of a string list, by command name:
   a blank for trees that hold Python lists, nothing where a list is kept as its text. *)
From Coq Require Import List NArith Bool Arith Lia.
From SV Require Import lib.Bytes lib.BytesFacts sieve.Lexer sieve.Tables sieve.ArgCheck sieve.ArgSpec sieve.Machine sieve.Printer
  sieve.ArgCheckFacts sieve.PositionFacts sieve.TotalFacts sieve.LexerFacts sieve.CompleteFacts sieve.CompleteTree
  sieve.RenderFacts.
Import ListNotations.

Definition sp (n : nat) : bytes := spaces n.

(* side goals [all_space _] are left to [auto with space] *)
Lemma space_nil : all_space []. Proof. reflexivity. Qed.
Lemma space_cons : forall c w, is_space c = true -> all_space w -> all_space (c :: w).
Proof. intros c w Hc Hw. unfold all_space in *. cbn. rewrite Hc. exact Hw. Qed.
Lemma space_app : forall a b, all_space a -> all_space b -> all_space (a ++ b).
Proof. intros a b Ha Hb. unfold all_space in *. rewrite forallb_app, Ha, Hb. reflexivity. Qed.
Lemma sp_space : forall n, all_space (sp n).
Proof. induction n as [|n IH]; [reflexivity|]. exact (space_cons 32%N _ eq_refl IH). Qed.

Create HintDb space.
#[global] Hint Resolve space_nil space_cons space_app sp_space : space.
#[global] Hint Extern 1 (is_space _ = true) => reflexivity : space.

(* right-nested form of a text built with [++] and [::] *)
Ltac app_norm := repeat (rewrite <- app_assoc || rewrite <- app_comm_cons).

(* [sw]: the white space written after the commas of a string list ([32] by Command.tosieve for a Python list,
   nothing by the filter factory's __quote_list) *)
Fixpoint lt_items (sw w : bytes) (items : list bytes) : list ltok :=
  match items with
  | [] => []
  | v :: r => (w, TString, v) :: match r with [] => [] | _ => ([], TComma, [44%N]) :: lt_items sw sw r end
  end.

Definition lt_arg (sw w : bytes) (a : argument) : list ltok :=
  match a with
  | (TyStringList, VList items) => (w, TLeftBracket, [91%N]) :: lt_items sw [] items ++ [([], TRightBracket, [93%N])]
  | (TyString, VStr s) => [(w, str_kind s, s)]
  | (TyNumber, VStr s) => [(w, TNumber, s)]
  | (TyTag, VStr s) => [(w, TTag, s)]
  | _ => []
  end.

(* a multi-line string is followed by a line feed (Command.tosieve writes it after the value): it becomes part of
   the white space before the next token *)
Definition is_ml (a : argument) : bool :=
  match a with
  | (TyString, VStr s) => match str_kind s with TMultiline => true | _ => false end
  | _ => false
  end.

Definition carry_of (a : argument) : bytes := if is_ml a then [10%N] else [].

Fixpoint lt_args_c (sw cin : bytes) (args : list argument) : list ltok :=
  match args with
  | [] => []
  | a :: r => lt_arg sw (cin ++ [32%N]) a ++ lt_args_c sw (carry_of a) r
  end.

Fixpoint args_carry (cin : bytes) (args : list argument) : bytes :=
  match args with [] => cin | a :: r => args_carry (carry_of a) r end.

Definition lt_args (sw : bytes) (args : list argument) : list ltok := lt_args_c sw [] args.

Section Sep.
Variable sepw : bytes -> bytes.
Hypothesis sepw_space : forall name, all_space (sepw name).

(* the line feed a test leaves pending *)
Fixpoint tcarry (t : gtest) : bytes :=
  match t with
  | GSimple _ args => args_carry [] args
  | GNot _ t' => tcarry t'
  | GList _ _ => []
  end.

(* Command.tosieve prints a test argument with the indent of the command it belongs to: inside a block the test of
   `if` or `not` follows a blank AND that indent, hence [ind].  The default of [last] is never used. *)
Fixpoint lt_test (ind : nat) (w : bytes) (t : gtest) : list ltok :=
  match t with
  | GSimple name args => (w, TIdentifier, name) :: lt_args (sepw name) args
  | GNot name t' => (w, TIdentifier, name) :: lt_test ind (32%N :: sp ind) t'
  | GList name ts =>
      (w, TIdentifier, name) :: ([32%N], TLeftParen, [40%N]) ::
      (fix go (w1 : bytes) (l : list gtest) : list ltok :=
         match l with
         | [] => []
         | [x] => lt_test 0 w1 x
         | x :: r => lt_test 0 w1 x ++ (tcarry x, TComma, [44%N]) :: go [32%N] r
         end) [] ts ++ [(tcarry (last ts (GList [] [])), TRightParen, [41%N])]
  end.

(* the inner fix of [lt_test] under a name (the nested fix is needed for termination, the name for lemmas) *)
Fixpoint lt_tests (w1 : bytes) (l : list gtest) : list ltok :=
  match l with
  | [] => []
  | [x] => lt_test 0 w1 x
  | x :: r => lt_test 0 w1 x ++ (tcarry x, TComma, [44%N]) :: lt_tests [32%N] r
  end.

Lemma lt_test_list : forall ind w name ts,
  lt_test ind w (GList name ts) =
  (w, TIdentifier, name) :: ([32%N], TLeftParen, [40%N]) :: lt_tests [] ts ++ [(tcarry (last ts (GList [] [])), TRightParen, [41%N])].
Proof. reflexivity. Qed.

Fixpoint lt_cmd (ind : nat) (w : bytes) (c : gcmd) : list ltok :=
  match c with
  | GAct name args => (w ++ sp ind, TIdentifier, name) :: lt_args (sepw name) args ++ [(args_carry [] args, TSemicolon, [59%N])]
  | GCtl name t body =>
      (w ++ sp ind, TIdentifier, name) :: lt_test ind (32%N :: sp ind) t ++ (tcarry t ++ [32%N], TLeftCBracket, [123%N]) ::
      flat_map (lt_cmd (ind + 4) [10%N]) body ++ [(10%N :: sp ind, TRightCBracket, [125%N])]
  | GElse name body =>
      (w ++ sp ind, TIdentifier, name) :: ([32%N], TLeftCBracket, [123%N]) ::
      flat_map (lt_cmd (ind + 4) [10%N]) body ++ [(10%N :: sp ind, TRightCBracket, [125%N])]
  end.

Definition lt_cmds (ind : nat) (w : bytes) (cs : list gcmd) : list ltok :=
  match cs with
  | [] => []
  | c :: r => lt_cmd ind w c ++ flat_map (lt_cmd ind [10%N]) r
  end.

Lemma ltoks_cons : forall w k v l, ltoks ((w, k, v) :: l) = mk k v :: ltoks l.
Proof. reflexivity. Qed.

Lemma ltoks_flat_map : forall (A : Type) (f : A -> list ltok) (g : A -> list token) l,
  Forall (fun x => ltoks (f x) = g x) l -> ltoks (flat_map f l) = flat_map g l.
Proof. intros A f g l H. induction H as [|x r Hx _ IH]; [reflexivity|]. cbn [flat_map]. rewrite ltoks_app, Hx, IH. reflexivity. Qed.

Lemma ltoks_items : forall sw items w, ltoks (lt_items sw w items) = item_toks items.
Proof.
  intro sw. induction items as [|v r IH]; intro w; [reflexivity|].
  cbn [lt_items item_toks]. destruct r as [|v2 r2]; [reflexivity|]. rewrite !ltoks_cons, (IH sw). reflexivity.
Qed.

Lemma ltoks_arg : forall sw w a, ltoks (lt_arg sw w a) = arg_toks a.
Proof.
  intros sw w [[] [s0|items|n0|ns0]]; try reflexivity.
  cbn [lt_arg arg_toks]. rewrite ltoks_cons, ltoks_app, ltoks_items. reflexivity.
Qed.

Lemma ltoks_args_c : forall sw args cin, ltoks (lt_args_c sw cin args) = flat_map arg_toks args.
Proof.
  intro sw. induction args as [|a r IH]; intro cin; [reflexivity|].
  cbn [lt_args_c flat_map]. rewrite ltoks_app, ltoks_arg, IH. reflexivity.
Qed.

Lemma ltoks_tests : forall ts w1, Forall (fun t => forall ind w, ltoks (lt_test ind w t) = toks_test t) ts ->
  ltoks (lt_tests w1 ts) = toks_tests ts.
Proof.
  intros ts w1 H. revert w1. induction H as [|x r Hx _ IH]; intro w1; [reflexivity|].
  cbn [lt_tests toks_tests]. destruct r as [|y r']; [apply Hx|]. rewrite ltoks_app, Hx, ltoks_cons, IH. reflexivity.
Qed.

Lemma ltoks_test : forall t ind w, ltoks (lt_test ind w t) = toks_test t.
Proof.
  induction t as [name args|name t' IH|name ts IH] using gtest_ind'; intros ind w.
  - cbn [lt_test toks_test]. unfold lt_args. rewrite ltoks_cons, ltoks_args_c. reflexivity.
  - cbn [lt_test toks_test]. rewrite ltoks_cons, IH. reflexivity.
  - rewrite lt_test_list, toks_test_list, !ltoks_cons, ltoks_app, (ltoks_tests ts [] IH). reflexivity.
Qed.

Lemma ltoks_cmd : forall c ind w, ltoks (lt_cmd ind w c) = toks_cmd c.
Proof.
  induction c as [name args|name t body IH|name body IH] using gcmd_ind'; intros ind w; cbn [lt_cmd toks_cmd];
    rewrite ?ltoks_cons, ?ltoks_app, ?ltoks_test, ?ltoks_cons, ?ltoks_app.
  - unfold lt_args. rewrite ltoks_args_c. reflexivity.
  - rewrite (ltoks_flat_map _ _ toks_cmd body); [reflexivity|]. eapply Forall_impl; [|exact IH]. intros x Hx. apply Hx.
  - rewrite (ltoks_flat_map _ _ toks_cmd body); [reflexivity|]. eapply Forall_impl; [|exact IH]. intros x Hx. apply Hx.
Qed.

Lemma ltoks_cmds : forall cs ind w, ltoks (lt_cmds ind w cs) = flat_map toks_cmd cs.
Proof.
  intros [|c r] ind w; [reflexivity|]. unfold lt_cmds. cbn [flat_map]. rewrite ltoks_app, ltoks_cmd. f_equal.
  apply ltoks_flat_map, Forall_forall. intros x _. apply ltoks_cmd.
Qed.

(* printable: values and names that the lexer reads back as they were written *)
Definition arg_pr (a : argument) : Prop :=
  match a with
  | (TyStringList, VList items) => items <> [] /\ Forall exact_string items
  | (TyString, VStr s) => exact_string s \/ (str_kind s = TMultiline /\ ml_ok s)
  | (TyNumber, VStr s) => num_ok s
  | (TyTag, VStr s) => tag_ok s = true
  | _ => False
  end.

Inductive test_pr : gtest -> Prop :=
| pr_simple : forall name args, ident_ok name = true -> Forall arg_pr args -> test_pr (GSimple name args)
| pr_not : forall name t, ident_ok name = true -> test_pr t -> test_pr (GNot name t)
| pr_list : forall name ts, ident_ok name = true -> ts <> [] -> Forall test_pr ts -> test_pr (GList name ts).

Inductive cmd_pr : gcmd -> Prop :=
| pr_act : forall name args, ident_ok name = true -> Forall arg_pr args -> cmd_pr (GAct name args)
| pr_ctl : forall name t body, ident_ok name = true -> test_pr t -> Forall cmd_pr body -> cmd_pr (GCtl name t body)
| pr_else : forall name body, ident_ok name = true -> Forall cmd_pr body -> cmd_pr (GElse name body).

Lemma lchain_flat_map : forall (A : Type) (f : A -> list ltok) l X,
  Forall (fun x => forall Y, lchain (f x) Y) l -> lchain (flat_map f l) X.
Proof. intros A f l X H. induction H as [|x r Hx _ IH]; [exact I|]. cbn [flat_map]. apply lchain_app; [apply Hx|exact IH]. Qed.

Lemma delim_space_head : forall c w X, is_space c = true -> tail_delim ((c :: w) ++ X).
Proof. intros c w X H. cbn. unfold delim. rewrite H. reflexivity. Qed.

Lemma lchain_items : forall sw items w X,
  all_space sw -> all_space w -> Forall exact_string items -> lchain (lt_items sw w items) X.
Proof.
  intros sw items w X Hsw. revert w X. induction items as [|v r IH]; intros w X Hw Hall; [exact I|].
  inversion Hall as [|v' r' Hv Hr]; subst. cbn [lt_items lchain].
  split; [exact Hw|]. split; [exact Hv|]. split; [exact I|].
  destruct r as [|v2 r2]; [exact I|]. apply (lchain_pcons [] TComma 44%N); [exact space_nil|reflexivity|]. apply IH; assumption.
Qed.

Lemma lt_arg_head : forall sw a w, arg_pr a -> exists k v r, lt_arg sw w a = (w, k, v) :: r.
Proof.
  intros sw [[] [s0|items|n0|ns0]] w H; cbn in H; try contradiction; cbn [lt_arg]; eauto.
Qed.

Lemma exact_str_kind : forall s, exact_string s -> str_kind s = TString.
Proof. intros s H. destruct (exact_string_shape s H) as (body & -> & _). reflexivity. Qed.

Definition after_arg (a : argument) (X : bytes) : Prop :=
  if is_ml a then X = [] \/ exists t, X = 10%N :: t else tail_delim X.

Lemma lchain_arg : forall sw a w X,
  all_space sw -> all_space w -> arg_pr a -> after_arg a X -> lchain (lt_arg sw w a) X.
Proof.
  intros sw [[] [s0|items|n0|ns0]] w X Hsw Hw H HX; cbn in H; try contradiction; unfold after_arg in HX; cbn [lt_arg lchain lrender app].
  - cbn [is_ml] in HX. split; [exact Hw|]. split; [exact H|]. split; [exact HX|exact I].
  - destruct H as [H|(Hk & Hm)].
    + rewrite (exact_str_kind s0 H). split; [exact Hw|]. split; [exact H|]. split; exact I.
    + unfold is_ml in HX. rewrite Hk in *. split; [exact Hw|]. split; [exact Hm|]. split; [exact HX|exact I].
  - destruct H as (Hne & Hall). apply (lchain_pcons _ TLeftBracket 91%N); [exact Hw|reflexivity|].
    apply lchain_app; [apply lchain_items; auto with space|apply (lchain_punct [] TRightBracket 93%N); auto with space].
  - cbn [is_ml] in HX. split; [exact Hw|]. split; [exact H|]. split; [exact HX|exact I].
Qed.

Lemma carry_space : forall a, all_space (carry_of a).
Proof. intro a. unfold carry_of. destruct (is_ml a); reflexivity. Qed.

Lemma args_carry_space : forall l c, all_space c -> all_space (args_carry c l).
Proof. induction l as [|a l IH]; intros c Hc; [exact Hc|]. cbn [args_carry]. apply IH, carry_space. Qed.

Lemma tcarry_space : forall t, all_space (tcarry t).
Proof.
  induction t as [name args|name t' IH|name ts _] using gtest_ind'; cbn [tcarry];
    [apply args_carry_space, space_nil|exact IH|reflexivity].
Qed.

#[local] Hint Resolve carry_space args_carry_space tcarry_space sepw_space : space.

Lemma rest_shape : forall sw r c Y, Forall arg_pr r ->
  exists Z, lrender (lt_args_c sw c r) ++ args_carry c r ++ Y = c ++ Z /\
            (r = [] -> Z = Y) /\ (r <> [] -> exists Z', Z = 32%N :: Z').
Proof.
  intros sw [|a r] c Y H.
  - exists Y. cbn. split; [reflexivity|]. split; [reflexivity|congruence].
  - inversion H as [|a' r' Ha Hr]; subst. cbn [lt_args_c args_carry].
    destruct (lt_arg_head sw a (c ++ [32%N]) Ha) as (k & v & r0 & ->). cbn [app lrender].
    eexists. split; [rewrite <- !app_assoc; cbn [app]; reflexivity|]. split; [discriminate|]. intros _. eexists. reflexivity.
Qed.

Lemma after_arg_from_shape : forall a Z,
  tail_delim (carry_of a ++ Z) -> after_arg a (carry_of a ++ Z).
Proof.
  intros a Z H. unfold after_arg, carry_of in *. destruct (is_ml a); [right; eexists; reflexivity|exact H].
Qed.

Lemma lchain_args_c : forall sw args cin Y,
  all_space sw ->
  Forall arg_pr args -> all_space cin -> tail_delim (args_carry cin args ++ Y) ->
  lchain (lt_args_c sw cin args) (args_carry cin args ++ Y).
Proof.
  intros sw args cin Y Hsw. revert cin Y. induction args as [|a r IH]; intros cin Y Hall Hc HY; [exact I|].
  inversion Hall as [|a' r' Ha Hr]; subst. cbn [lt_args_c args_carry] in *.
  apply lchain_app; [|apply IH; auto with space].
  apply lchain_arg; auto with space.
  destruct (rest_shape sw r (carry_of a) Y Hr) as (Z & E & Z0 & Z1). rewrite E.
  apply (after_arg_from_shape a Z).
  destruct r as [|a2 r2].
  - rewrite (Z0 eq_refl). cbn [args_carry] in HY. exact HY.
  - destruct (Z1 ltac:(discriminate)) as (Z' & ->). unfold carry_of. destruct (is_ml a); reflexivity.
Qed.

Lemma args_after_name : forall sw args Y, Forall arg_pr args -> tail_delim (args_carry [] args ++ Y) ->
  tail_delim (lrender (lt_args sw args) ++ args_carry [] args ++ Y).
Proof.
  intros sw args Y Hall HY. unfold lt_args. destruct (rest_shape sw args [] Y Hall) as (Z & E & Z0 & Z1). rewrite E. cbn [app].
  destruct args as [|a r]; [rewrite (Z0 eq_refl); exact HY|].
  destruct (Z1 ltac:(discriminate)) as (Z' & ->). reflexivity.
Qed.

Lemma lt_test_head : forall t ind w, exists name r, lt_test ind w t = (w, TIdentifier, name) :: r.
Proof. intros [name args|name t'|name ts] ind w; cbn [lt_test]; eauto. Qed.

Lemma carry_delim : forall c Y, all_space c -> (c = [] -> tail_delim Y) -> tail_delim (c ++ Y).
Proof.
  intros [|x c] Y Hc HY; [apply HY; reflexivity|]. cbn. unfold all_space in Hc. cbn in Hc. apply andb_true_iff in Hc as [Hx _].
  unfold delim. rewrite Hx. reflexivity.
Qed.

Lemma lchain_tests : forall l w1 Z,
  Forall (fun t => forall ind w Y, all_space w -> tail_delim (tcarry t ++ Y) -> lchain (lt_test ind w t) (tcarry t ++ Y)) l ->
  l <> [] -> all_space w1 -> lchain (lt_tests w1 l) (tcarry (last l (GList [] [])) ++ 41%N :: Z).
Proof.
  intros l w1 Z H. revert w1. induction H as [|x r Hx Hr IH]; intros w1 Hne Hw1; [congruence|].
  cbn [lt_tests]. destruct r as [|y r2].
  - apply Hx; [exact Hw1|]. apply carry_delim; [auto with space|reflexivity].
  - change (last (x :: y :: r2) (GList [] [])) with (last (y :: r2) (GList [] [])). apply lchain_app.
    + cbn [lrender app]. rewrite <- app_assoc. apply Hx; [exact Hw1|]. apply carry_delim; [auto with space|reflexivity].
    + apply (lchain_pcons _ TComma 44%N); [auto with space|reflexivity|]. apply IH; [discriminate|auto with space].
Qed.

Lemma lchain_test : forall t ind w Y,
  test_pr t -> all_space w -> tail_delim (tcarry t ++ Y) -> lchain (lt_test ind w t) (tcarry t ++ Y).
Proof.
  induction t as [name args|name t' IH|name ts IH] using gtest_ind'; intros ind w Y Hp Hw HY.
  - inversion Hp as [n a Hn Ha| |]; subst. cbn [lt_test tcarry] in *.
    apply lchain_icons; [exact Hw|exact Hn|apply args_after_name; assumption|apply lchain_args_c; auto with space].
  - inversion Hp as [|n t0 Hn Ht|]; subst. cbn [lt_test tcarry] in *.
    apply lchain_icons; [exact Hw|exact Hn| |apply IH; auto with space].
    destruct (lt_test_head t' ind (32%N :: sp ind)) as (nm & r & ->). apply delim_space_head. reflexivity.
  - inversion Hp as [| |n l Hn Hne Hall]; subst. rewrite lt_test_list. cbn [tcarry] in *.
    apply lchain_icons; [exact Hw|exact Hn|reflexivity|].
    apply (lchain_pcons _ TLeftParen 40%N); [auto with space|reflexivity|].
    apply lchain_app; [|apply (lchain_punct _ TRightParen 41%N); auto with space].
    cbn [lrender app]. rewrite <- app_assoc. apply lchain_tests; [|exact Hne|auto with space].
    rewrite Forall_forall in *. intros x Hx i w0 Y0. apply IH; auto.
Qed.

Lemma lchain_cmd : forall c ind w X, cmd_pr c -> all_space w -> lchain (lt_cmd ind w c) X.
Proof.
  assert (Hblock : forall body w i Y,
            Forall (fun c => forall ind w X, cmd_pr c -> all_space w -> lchain (lt_cmd ind w c) X) body -> Forall cmd_pr body ->
            all_space w ->
            lchain ((w, TLeftCBracket, [123%N]) :: flat_map (lt_cmd (i + 4) [10%N]) body ++ [(10%N :: sp i, TRightCBracket, [125%N])]) Y).
  { intros body w i Y IH Hb Hw. apply (lchain_pcons _ TLeftCBracket 123%N); [exact Hw|reflexivity|].
    apply lchain_app; [|apply (lchain_punct _ TRightCBracket 125%N); auto with space].
    apply lchain_flat_map. rewrite Forall_forall in *. intros x Hx Y0. apply IH; auto with space. }
  induction c as [name args|name t body IH|name body IH] using gcmd_ind'; intros ind w X Hp Hw; cbn [lt_cmd].
  - inversion Hp as [n a Hn Ha| |]; subst.
    assert (Hd : tail_delim (args_carry [] args ++ 59%N :: X)) by (apply carry_delim; [auto with space|reflexivity]).
    apply lchain_icons; [auto with space|exact Hn| |].
    + rewrite lrender_app. cbn [lrender app]. rewrite <- !app_assoc. apply (args_after_name (sepw name) args (59%N :: X) Ha Hd).
    + apply lchain_app; [|apply (lchain_punct _ TSemicolon 59%N); auto with space].
      cbn [lrender app]. rewrite <- app_assoc. apply lchain_args_c; auto with space.
  - inversion Hp as [|n t0 b Hn Ht Hb|]; subst.
    apply lchain_icons; [auto with space|exact Hn| |].
    + destruct (lt_test_head t ind (32%N :: sp ind)) as (nm & r & ->). apply delim_space_head. reflexivity.
    + apply lchain_app; [|apply Hblock; auto with space].
      cbn [lrender app]. rewrite <- !app_assoc. apply lchain_test; [exact Ht|auto with space|].
      apply carry_delim; [auto with space|reflexivity].
  - inversion Hp as [| |n b Hn Hb]; subst.
    apply lchain_icons; [auto with space|exact Hn|reflexivity|apply Hblock; auto with space].
Qed.

Lemma lchain_cmds : forall cs ind w X, Forall cmd_pr cs -> all_space w -> lchain (lt_cmds ind w cs) X.
Proof.
  intros [|c r] ind w X Hall Hw; [exact I|]. inversion Hall as [|c' r' Hc Hr]; subst. unfold lt_cmds.
  apply lchain_app; [apply lchain_cmd; assumption|]. apply lchain_flat_map.
  rewrite Forall_forall in *. intros x Hx Y. apply lchain_cmd; auto with space.
Qed.

Definition script_text (cs : list gcmd) : bytes := lrender (lt_cmds 0 [] cs) ++ [10%N].

Theorem layout_lexes : forall cs,
  Forall cmd_pr cs ->
  snd (lex (script_text cs)) = None /\ map strip_pos (fst (lex (script_text cs))) = flat_map toks_cmd cs.
Proof.
  intros cs Hp. unfold script_text.
  destruct (lex_lrender (lt_cmds 0 [] cs) [10%N] (lchain_cmds cs 0 [] [10%N] Hp space_nil) eq_refl) as (A & B).
  rewrite ltoks_cmds in B. auto.
Qed.

(* C04 on the layout: the text of a well-formed script parses to exactly its tree *)
Theorem layout_parses : forall T cs ns L',
  twf_tables T = true -> wf_cmds T [] None cs ns L' -> Forall cmd_pr cs ->
  parse T (script_text cs) = Accept ns.
Proof.
  intros T cs ns L' HT Hwf Hp. destruct (layout_lexes cs Hp) as (A & B).
  exact (parse_script T (script_text cs) cs ns L' HT A B Hwf).
Qed.

Print Assumptions layout_parses.


(* the local functions of Printer.tosieve, as functions of the recursive calls *)
Fixpoint p_tests (pt : node -> bytes) (l : list node) : bytes :=
  match l with
  | [] => []
  | [t] => pt t
  | t :: r => pt t ++ [44%N; 32%N] ++ p_tests pt r
  end.

Definition p_value (d : cmddef) (pt0 pti : node -> bytes) (is_string : bool) (name : bytes) (v : aval) : bytes :=
  match v with
  | VTests l =>
      match find_def (d_args d) name with
      | Some a => match a_type a with
                  | [TyTestList] => [40%N] ++ p_tests pt0 l ++ [41%N]
                  | _ => print_items []
                  end
      | None => print_items []
      end
  | VList vs =>
      match find_def (d_args d) name with
      | Some a => match a_type a with
                  | [TyTestList] => [40%N; 41%N]
                  | _ => print_items vs
                  end
      | None => print_items vs
      end
  | VTest t => pti t
  | VStr s => print_scalar is_string s
  end.

Fixpoint p_args (d : cmddef) (pt0 pti : node -> bytes) (n : node) (defs : list argdef) : bytes :=
  match defs with
  | [] => []
  | a :: rest =>
      match assoc_get (a_name a) (node_args n) with
      | None => p_args d pt0 pti n rest
      | Some v =>
          [32%N] ++
          (if atype_mem TyTag (a_type a) then
             (match v with VStr s => s | _ => [] end) ++
             (match assoc_get (a_name a) (node_extra n), a_extra a with
              | Some ev, Some ex => [32%N] ++ p_value d pt0 pti (has_string_ex (ex_type ex)) (a_name a) ev
              | _, _ => []
              end)
           else p_value d pt0 pti (has_string_list (a_type a)) (a_name a) v)
          ++ p_args d pt0 pti n rest
      end
  end.

Fixpoint p_kids (pk : node -> bytes) (l : list node) : bytes :=
  match l with [] => [] | c :: r => pk c ++ p_kids pk r end.

Lemma tosieve_S : forall f n indent,
  tosieve (S f) n indent =
  spaces indent ++ d_name (node_def n) ++
  p_args (node_def n) (fun t => tosieve f t 0) (fun t => tosieve f t indent) n (d_args (node_def n)) ++
  (if negb (d_accept_children (node_def n)) then
     match d_type (node_def n) with CTest => [] | _ => [59%N; 10%N] end
   else match d_type (node_def n) with
        | CControl => [32%N; 123%N; 10%N] ++ p_kids (fun c => tosieve f c (indent + 4)) (node_children n) ++ spaces indent ++ [125%N; 10%N]
        | _ => []
        end).
Proof.
  intros f n indent. cbn [tosieve]. f_equal. f_equal. f_equal.
  - match goal with |- ?F ?l = p_args ?d ?a ?b ?n0 ?l =>
      assert (H : forall defs, F defs = p_args d a b n0 defs); [|apply H] end.
    assert (Ht : forall l,
      (fix tests (l1 : list node) : bytes :=
         match l1 with
         | [] => []
         | [t] => tosieve f t 0
         | t :: (_ :: _) as r => tosieve f t 0 ++ [44%N; 32%N] ++ tests r
         end) l = p_tests (fun t => tosieve f t 0) l).
    { induction l as [|t r IHr]; [reflexivity|]. cbn [p_tests]. destruct r as [|t2 r2]; [reflexivity|]. rewrite <- IHr. reflexivity. }
    induction defs as [|a rest IH]; [reflexivity|].
    cbn [p_args]. rewrite <- IH. clear IH.
    destruct (assoc_get (a_name a) (node_args n)) as [v|]; [|reflexivity].
    f_equal. f_equal.
    destruct (atype_mem TyTag (a_type a)).
    + f_equal. destruct (assoc_get (a_name a) (node_extra n)) as [ev|]; [|reflexivity].
      destruct (a_extra a) as [ex|]; [|reflexivity]. f_equal.
      destruct ev; try reflexivity. unfold p_value. rewrite Ht. reflexivity.
    + destruct v; try reflexivity. unfold p_value. rewrite Ht. reflexivity.
  - destruct (negb (d_accept_children (node_def n))); [reflexivity|].
    destruct (d_type (node_def n)); try reflexivity.
    f_equal. f_equal.
    generalize (node_children n). induction l as [|c r IHr]; [reflexivity|]. cbn [p_kids]. rewrite <- IHr. reflexivity.
Qed.

(* [find_def] does not send the printer to a test-list slot for this name *)
Definition plain_name (d : cmddef) (name : bytes) : Prop :=
  match find_def (d_args d) name with
  | Some a0 => match a_type a0 with [TyTestList] => False | _ => True end
  | None => True
  end.

(* [val_arg .. v p]: the stored value [v] is written as the argument [p] *)
Inductive val_arg (sw : bytes) (d : cmddef) (name : bytes) (is_string : bool) : aval -> argument -> Prop :=
| va_string : forall s, exact_string s -> val_arg sw d name is_string (VStr s) (TyString, VStr s)
| va_number : forall s, num_ok s -> is_string = false -> val_arg sw d name is_string (VStr s) (TyNumber, VStr s)
| va_list : forall vs, sw = [32%N] -> vs <> [] -> Forall exact_string vs -> plain_name d name ->
            val_arg sw d name is_string (VList vs) (TyStringList, VList vs)
| va_ml : forall s, str_kind s = TMultiline -> ml_ok s -> is_string = true ->
          val_arg sw d name is_string (VStr s) (TyString, VStr s)
(* a string list handed over as its text "[a,b]" (what FiltersSet.__quote_list produces) *)
| va_qlist : forall vs, sw = [] -> vs <> [] -> Forall exact_string vs ->
             val_arg sw d name is_string (VStr (91%N :: join [44%N] vs ++ [93%N])) (TyStringList, VList vs)
(* a Python list of strings that are not quoted yet (the extension names of FiltersSet.requires): Command.tosieve
   puts the quotes around each item *)
| va_rawlist : forall vs, sw = [32%N] -> vs <> [] -> Forall exact_string (map print_item vs) -> plain_name d name ->
               val_arg sw d name is_string (VList vs) (TyStringList, VList (map print_item vs)).

(* the maps [am] / [em] of a node, read slot by slot in the order of the definition, are the arguments [args] *)
Inductive slots_args (sw : bytes) (d : cmddef) (am em : list (bytes * aval)) : list argdef -> list argument -> Prop :=
| sa_nil : slots_args sw d am em [] []
| sa_absent : forall a rest args,
    assoc_get (a_name a) am = None -> slots_args sw d am em rest args -> slots_args sw d am em (a :: rest) args
| sa_tag : forall a rest args s,
    atype_mem TyTag (a_type a) = true -> assoc_get (a_name a) am = Some (VStr s) -> tag_ok s = true ->
    (assoc_get (a_name a) em = None \/ a_extra a = None) ->
    slots_args sw d am em rest args -> slots_args sw d am em (a :: rest) ((TyTag, VStr s) :: args)
| sa_tag_param : forall a rest args s ev ex p,
    atype_mem TyTag (a_type a) = true -> assoc_get (a_name a) am = Some (VStr s) -> tag_ok s = true ->
    assoc_get (a_name a) em = Some ev -> a_extra a = Some ex ->
    val_arg sw d (a_name a) (has_string_ex (ex_type ex)) ev p ->
    slots_args sw d am em rest args -> slots_args sw d am em (a :: rest) ((TyTag, VStr s) :: p :: args)
| sa_pos : forall a rest args v p,
    atype_mem TyTag (a_type a) = false -> assoc_get (a_name a) am = Some v ->
    val_arg sw d (a_name a) (has_string_list (a_type a)) v p ->
    slots_args sw d am em rest args -> slots_args sw d am em (a :: rest) (p :: args).

Lemma join_items_layout : forall sw vs w, vs <> [] -> lrender (lt_items sw w vs) = w ++ join (44%N :: sw) vs.
Proof.
  intro sw. induction vs as [|v r IH]; intros w Hne; [congruence|].
  cbn [lt_items lrender]. destruct r as [|v2 r2].
  - cbn. rewrite app_nil_r. reflexivity.
  - cbn [lrender app]. rewrite (IH sw) by discriminate.
    change (join (44%N :: sw) (v :: v2 :: r2)) with (v ++ (44%N :: sw) ++ join (44%N :: sw) (v2 :: r2)).
    cbn [app]. reflexivity.
Qed.

Lemma lt_arg_w : forall sw p w, arg_pr p -> lrender (lt_arg sw w p) = w ++ lrender (lt_arg sw [] p).
Proof.
  intros sw [[] [s0|items|n0|ns0]] w H; cbn in H; try contradiction; cbn [lt_arg lrender app]; reflexivity.
Qed.

Lemma val_arg_pr : forall sw d name b v p, val_arg sw d name b v p -> arg_pr p.
Proof.
  intros sw d name b v p H. destruct H; cbn; auto.
  split; [|assumption]. destruct vs; [congruence|discriminate].
Qed.

Lemma print_items_layout : forall d name vs, vs <> [] -> plain_name d name ->
  match find_def (d_args d) name with
  | Some a => match a_type a with [TyTestList] => [40%N; 41%N] | _ => print_items vs end
  | None => print_items vs
  end = 91%N :: lrender (lt_items [32%N] [] (map print_item vs) ++ [([], TRightBracket, [93%N])]).
Proof.
  intros d name vs Hne Hpl.
  assert (Hp : print_items vs = 91%N :: lrender (lt_items [32%N] [] (map print_item vs) ++ [([], TRightBracket, [93%N])])).
  { unfold print_items. rewrite lrender_app, (join_items_layout [32%N] (map print_item vs) []); [reflexivity|].
    destruct vs; [congruence|discriminate]. }
  unfold plain_name in Hpl. destruct (find_def (d_args d) name) as [a0|]; [|exact Hp].
  destruct (a_type a0) as [|[] [|y l]]; try exact Hp. contradiction.
Qed.

Lemma val_layout : forall sw d pt0 pti name b v p,
  val_arg sw d name b v p -> p_value d pt0 pti b name v = lrender (lt_arg sw [] p) ++ carry_of p.
Proof.
  intros sw d pt0 pti name b v p H.
  destruct H as [s Hs|s Hs Hb|vs Hsw Hne Hall Hpl|s Hk Hm Hb|vs Hsw Hne Hall|vs Hsw Hne Hall Hpl];
    cbn [p_value lt_arg lrender app]; unfold carry_of, print_scalar; cbn [is_ml]; rewrite ?app_nil_r.
  - destruct (exact_string_shape s Hs) as (body & -> & _). cbn [str_kind starts_with N.eqb Pos.eqb andb orb].
    destruct b; rewrite ?app_nil_r; reflexivity.
  - subst b. reflexivity.
  - subst sw. rewrite (print_items_layout d name vs Hne Hpl), (map_print_item_exact vs Hall). reflexivity.
  - subst b. rewrite Hk. destruct (ml_ok_shape s Hm) as (t & ->). reflexivity.
  - subst sw. rewrite lrender_app, (join_items_layout [] vs [] Hne). cbn [lrender app starts_with N.eqb Pos.eqb andb orb].
    rewrite ?app_nil_r. destruct b; reflexivity.
  - subst sw. apply (print_items_layout d name vs Hne Hpl).
Qed.

Definition args_text (sw : bytes) (args : list argument) : bytes :=
  concat (map (fun p => 32%N :: lrender (lt_arg sw [] p) ++ carry_of p) args).

Lemma args_text_layout : forall sw args cin, Forall arg_pr args ->
  cin ++ args_text sw args = lrender (lt_args_c sw cin args) ++ args_carry cin args.
Proof.
  intro sw. induction args as [|a r IH]; intros cin H; [cbn; rewrite app_nil_r; reflexivity|].
  inversion H as [|a' r' Ha Hr]; subst. unfold args_text in *. cbn [map concat lt_args_c args_carry].
  rewrite lrender_app, (lt_arg_w sw a (cin ++ [32%N]) Ha), <- !app_assoc. cbn [app].
  rewrite <- (IH (carry_of a) Hr). rewrite <- !app_assoc. reflexivity.
Qed.

Lemma slots_args_pr : forall sw d am em defs args, slots_args sw d am em defs args -> Forall arg_pr args.
Proof.
  intros sw d am em defs args H. induction H; auto; repeat (constructor; eauto using val_arg_pr).
Qed.

Lemma args_layout : forall sw d am em ch cm pt0 pti defs args,
  slots_args sw d am em defs args ->
  p_args d pt0 pti (Node d am em ch cm) defs = args_text sw args.
Proof.
  intros sw d am em ch cm pt0 pti defs args H. unfold args_text.
  induction H as [|a rest args Ha H IH|a rest args s Ht Ha Hs Hno H IH|a rest args s ev ex p Ht Ha Hs He Hex Hv H IH
                  |a rest args v p Ht Ha Hv H IH]; cbn [p_args node_args node_extra map concat].
  - reflexivity.
  - rewrite Ha. exact IH.
  - rewrite Ha, Ht, <- IH. cbn [lt_arg lrender app]. change (carry_of (TyTag, VStr s)) with (@nil N). rewrite !app_nil_r.
    destruct Hno as [Hn|Hn]; rewrite Hn; [|destruct (assoc_get (a_name a) em)]; rewrite ?app_nil_r; reflexivity.
  - rewrite Ha, Ht, He, Hex, <- IH, (val_layout sw d pt0 pti _ _ _ _ Hv).
    cbn [lt_arg lrender app]. change (carry_of (TyTag, VStr s)) with (@nil N). rewrite !app_nil_r. cbn [app].
    app_norm. reflexivity.
  - rewrite Ha, Ht, <- IH, (val_layout sw d pt0 pti _ _ _ _ Hv). cbn [app]. app_norm. reflexivity.
Qed.

Lemma args_layout_c : forall sw d am em ch cm pt0 pti defs args,
  slots_args sw d am em defs args ->
  p_args d pt0 pti (Node d am em ch cm) defs = lrender (lt_args sw args) ++ args_carry [] args.
Proof.
  intros sw d am em ch cm pt0 pti defs args H. rewrite (args_layout sw d am em ch cm pt0 pti defs args H).
  exact (args_text_layout sw args [] (slots_args_pr _ _ _ _ _ _ H)).
Qed.

(* nesting depth: the fuel [tosieve] needs *)
Fixpoint dt (t : gtest) : nat :=
  match t with
  | GSimple _ _ => 1
  | GNot _ t' => S (dt t')
  | GList _ ts => S (fold_right (fun x m => Nat.max (dt x) m) 0 ts)
  end.

Fixpoint dc (c : gcmd) : nat :=
  match c with
  | GAct _ _ => 1
  | GCtl _ t body => S (Nat.max (dt t) (fold_right (fun x m => Nat.max (dc x) m) 0 body))
  | GElse _ body => S (fold_right (fun x m => Nat.max (dc x) m) 0 body)
  end.

(* the tree of a script whose commands are spelled as in their definitions and whose arguments are written in
   definition order, each optional slot at most once *)
Inductive canon_test : gtest -> node -> Prop :=
| ct_simple : forall d args am em,
    ident_ok (d_name d) = true -> d_type d = CTest -> slots_args (sepw (d_name d)) d am em (d_args d) args ->
    canon_test (GSimple (d_name d) args) (Node d am em [] [])
| ct_not : forall d a t' n',
    ident_ok (d_name d) = true -> d_type d = CTest -> d_args d = [a] -> atype_mem TyTag (a_type a) = false ->
    canon_test t' n' ->
    canon_test (GNot (d_name d) t') (Node d [(a_name a, VTest n')] [] [] [])
| ct_list : forall d a ts ns,
    ident_ok (d_name d) = true -> d_type d = CTest -> d_args d = [a] -> a_type a = [TyTestList] -> ts <> [] ->
    Forall2 canon_test ts ns ->
    canon_test (GList (d_name d) ts) (Node d [(a_name a, VTests ns)] [] [] []).

Inductive canon_cmd : gcmd -> node -> Prop :=
| cc_act : forall d args am em,
    ident_ok (d_name d) = true -> d_type d <> CTest -> d_accept_children d = false -> slots_args (sepw (d_name d)) d am em (d_args d) args ->
    canon_cmd (GAct (d_name d) args) (Node d am em [] [])
| cc_ctl : forall d a t nt body ns,
    ident_ok (d_name d) = true -> d_type d = CControl -> d_accept_children d = true -> d_args d = [a] -> atype_mem TyTag (a_type a) = false ->
    canon_test t nt -> Forall2 canon_cmd body ns ->
    canon_cmd (GCtl (d_name d) t body) (Node d [(a_name a, VTest nt)] [] ns [])
| cc_else : forall d body ns,
    ident_ok (d_name d) = true -> d_type d = CControl -> d_accept_children d = true -> d_args d = [] ->
    Forall2 canon_cmd body ns ->
    canon_cmd (GElse (d_name d) body) (Node d [] [] ns []).

Lemma tosieve_test : forall f d am em ch cm ind, d_type d = CTest ->
  tosieve (S f) (Node d am em ch cm) ind = spaces ind ++ d_name d ++
    p_args d (fun t => tosieve f t 0) (fun t => tosieve f t ind) (Node d am em ch cm) (d_args d).
Proof. intros f d am em ch cm ind H. rewrite tosieve_S. cbn [node_def]. rewrite H. destruct (negb _); rewrite app_nil_r; reflexivity. Qed.

Lemma tosieve_action : forall f d am em ch cm ind, d_type d <> CTest -> d_accept_children d = false ->
  tosieve (S f) (Node d am em ch cm) ind = spaces ind ++ d_name d ++
    p_args d (fun t => tosieve f t 0) (fun t => tosieve f t ind) (Node d am em ch cm) (d_args d) ++ [59%N; 10%N].
Proof.
  intros f d am em ch cm ind H Hc. rewrite tosieve_S. cbn [node_def]. rewrite Hc.
  destruct (d_type d); [reflexivity|reflexivity|congruence].
Qed.

Lemma tosieve_block : forall f d am em ch cm ind, d_type d = CControl -> d_accept_children d = true ->
  tosieve (S f) (Node d am em ch cm) ind = spaces ind ++ d_name d ++
    p_args d (fun t => tosieve f t 0) (fun t => tosieve f t ind) (Node d am em ch cm) (d_args d) ++
    [32%N; 123%N; 10%N] ++ p_kids (fun c => tosieve f c (ind + 4)) ch ++ spaces ind ++ [125%N; 10%N].
Proof. intros f d am em ch cm ind H Hc. rewrite tosieve_S. cbn [node_def node_children]. rewrite Hc, H. reflexivity. Qed.

Lemma p_args_one : forall d pt0 pti a v ch cm,
  atype_mem TyTag (a_type a) = false ->
  p_args d pt0 pti (Node d [(a_name a, v)] [] ch cm) [a] = 32%N :: p_value d pt0 pti (has_string_list (a_type a)) (a_name a) v.
Proof. intros d pt0 pti a v ch cm H. cbn [p_args node_args assoc_get]. rewrite beq_refl, H, app_nil_r. reflexivity. Qed.

Lemma p_value_tests : forall d pt0 pti b a ns, d_args d = [a] -> a_type a = [TyTestList] ->
  p_value d pt0 pti b (a_name a) (VTests ns) = [40%N] ++ p_tests pt0 ns ++ [41%N].
Proof. intros d pt0 pti b a ns Ha Ht. cbn [p_value]. rewrite Ha. cbn [find_def]. rewrite beq_refl, Ht. reflexivity. Qed.

(* the line feed that ends a command or a text: block counts as white space before the NEXT token: hence any text
   [w] before, one pending line feed after *)
Definition Ptest (t : gtest) (n : node) : Prop :=
  forall f ind w, dt t <= f -> w ++ tosieve f n ind = lrender (lt_test ind (w ++ sp ind) t) ++ tcarry t.

Lemma lt_tests_layout : forall f ts ns,
  Forall2 (fun t n => dt t <= f -> forall w, w ++ tosieve f n 0 = lrender (lt_test 0 w t) ++ tcarry t) ts ns ->
  fold_right (fun x m => Nat.max (dt x) m) 0 ts <= f -> ts <> [] ->
  forall w1, w1 ++ p_tests (fun t => tosieve f t 0) ns = lrender (lt_tests w1 ts) ++ tcarry (last ts (GList [] [])).
Proof.
  intros f ts ns H. induction H as [|t n ts ns Ht Hr IH]; intros Hd Hne w1; [congruence|].
  cbn [fold_right] in Hd. cbn [p_tests lt_tests].
  destruct Hr as [|t2 n2 ts2 ns2 Ht2 Hr2].
  - cbn [last]. apply Ht. lia.
  - change (last (t :: t2 :: ts2) (GList [] [])) with (last (t2 :: ts2) (GList [] [])).
    rewrite lrender_app. cbn [lrender]. rewrite app_assoc, (Ht ltac:(lia) w1).
    pose proof (IH ltac:(lia) ltac:(discriminate) [32%N]) as E. cbn [app] in E.
    rewrite <- !app_assoc. cbn [app]. rewrite E. reflexivity.
Qed.

Theorem test_layout : forall t n, canon_test t n -> Ptest t n.
Proof using sepw_space.
  fix IH 3. intros t n H. destruct H as [d args am em Hid Hty Hs|d a t' n' Hid Hty Ha Hnt Ht|d a ts ns Hid Hty Ha Htl Hne Hall];
    intros f ind w Hf; (destruct f as [|f]; [cbn in Hf; lia|]); rewrite (tosieve_test f d _ _ _ _ ind Hty); unfold sp.
  - rewrite (args_layout_c _ d am em [] [] (fun t => tosieve f t 0) (fun t => tosieve f t ind) _ _ Hs). cbn [lt_test lrender tcarry]. rewrite <- !app_assoc. reflexivity.
  - rewrite Ha, (p_args_one _ _ _ _ _ _ _ Hnt). cbn [p_value lt_test lrender dt tcarry] in *.
    pose proof (IH t' n' Ht f ind [32%N] ltac:(lia)) as E. cbn [app] in E. unfold sp in E.
    rewrite <- !app_assoc. cbn [app]. rewrite E. reflexivity.
  - assert (Hnt : atype_mem TyTag (a_type a) = false) by (rewrite Htl; reflexivity).
    rewrite Ha, (p_args_one _ _ _ _ _ _ _ Hnt), (p_value_tests _ _ _ _ _ _ Ha Htl), lt_test_list. cbn [lrender dt tcarry] in *.
    assert (G : Forall2 (fun t n => dt t <= f -> forall w, w ++ tosieve f n 0 = lrender (lt_test 0 w t) ++ tcarry t) ts ns).
    { clear Hne Hf. induction Hall as [|t0 n0 ts0 ns0 H0 Hr IHr]; constructor; [|exact IHr].
      intros Hd w0. pose proof (IH t0 n0 H0 f 0 w0 Hd) as E. rewrite app_nil_r in E. exact E. }
    pose proof (lt_tests_layout f ts ns G ltac:(lia) Hne []) as E. cbn [app] in E.
    rewrite lrender_app. cbn [lrender app]. rewrite <- !app_assoc. cbn [app]. rewrite E, <- !app_assoc. reflexivity.
Qed.

Definition Pcmdl (c : gcmd) (n : node) : Prop :=
  forall f ind w, dc c <= f -> w ++ tosieve f n ind = lrender (lt_cmd ind w c) ++ [10%N].

Lemma kids_layout : forall f i body ns,
  Forall2 (fun c n => dc c <= f -> [10%N] ++ tosieve f n i = lrender (lt_cmd i [10%N] c) ++ [10%N]) body ns ->
  fold_right (fun x m => Nat.max (dc x) m) 0 body <= f ->
  forall R, 10%N :: p_kids (fun c => tosieve f c i) ns ++ R = lrender (flat_map (lt_cmd i [10%N]) body) ++ 10%N :: R.
Proof.
  intros f i body ns H. induction H as [|c n body ns Hc Hr IH]; intros Hd R; [reflexivity|].
  cbn [fold_right] in Hd. cbn [p_kids flat_map]. rewrite lrender_app, <- !app_assoc.
  rewrite <- (IH ltac:(lia) R), app_comm_cons. change (10%N :: tosieve f n i) with ([10%N] ++ tosieve f n i).
  rewrite (Hc ltac:(lia)), <- app_assoc. reflexivity.
Qed.

Theorem cmd_layout : forall c n, canon_cmd c n -> Pcmdl c n.
Proof using sepw_space.
  fix IH 3. intros c n H.
  assert (G : forall f i body ns, Forall2 canon_cmd body ns ->
              Forall2 (fun c n => dc c <= f -> [10%N] ++ tosieve f n i = lrender (lt_cmd i [10%N] c) ++ [10%N]) body ns).
  { intros f i body ns Hb. induction Hb as [|c0 n0 b0 ns0 H0 Hr IHr]; constructor; [|exact IHr].
    intro Hd. exact (IH c0 n0 H0 f i [10%N] Hd). }
  destruct H as [d args am em Hid Hty Hch Hs|d a t nt body ns Hid Hty Hch Ha Hnt Ht Hb|d body ns Hid Hty Hch Ha Hb];
    intros f ind w Hf; (destruct f as [|f]; [cbn in Hf; lia|]).
  - rewrite (tosieve_action f d _ _ _ _ ind Hty Hch).
    rewrite (args_layout_c _ d am em [] [] (fun t => tosieve f t 0) (fun t => tosieve f t ind) _ _ Hs). cbn [lt_cmd lrender]. rewrite lrender_app. cbn [lrender app]. unfold sp. rewrite <- !app_assoc. reflexivity.
  - rewrite (tosieve_block f d _ _ _ _ ind Hty Hch).
    rewrite Ha, (p_args_one _ _ _ _ _ _ _ Hnt). cbn [p_value lt_cmd lrender dc] in *.
    pose proof (test_layout t nt Ht f ind [32%N] ltac:(lia)) as E. cbn [app] in E.
    (* both sides are the same concatenation: E is the test, kids_layout the body *)
    rewrite !lrender_app. cbn [lrender app]. rewrite lrender_app. cbn [lrender app]. unfold sp in *.
    app_norm. rewrite app_comm_cons, E. app_norm.
    rewrite (kids_layout f (ind + 4) body ns (G f (ind + 4) body ns Hb) ltac:(lia)). reflexivity.
  - rewrite (tosieve_block f d _ _ _ _ ind Hty Hch).
    rewrite Ha. cbn [p_args lt_cmd lrender dc app] in *. rewrite lrender_app. cbn [lrender app]. unfold sp. app_norm.
    rewrite (kids_layout f (ind + 4) body ns (G f (ind + 4) body ns Hb) ltac:(lia)). reflexivity.
Qed.

Theorem tosieve_layout : forall cs ns f,
  Forall2 canon_cmd cs ns -> cs <> [] -> fold_right (fun x m => Nat.max (dc x) m) 0 cs <= f ->
  tosieve_all f ns = script_text cs.
(* the hypothesis on [sepw] belongs to the statement; no step below needs it, hence [using] *)
Proof using sepw_space.
  intros cs ns f H Hne Hd. unfold tosieve_all, script_text.
  destruct H as [|c n cs ns Hc Hr]; [congruence|]. cbn [fold_right] in Hd.
  cbn [map concat]. unfold lt_cmds. rewrite lrender_app.
  pose proof (cmd_layout c n Hc f 0 [] ltac:(lia)) as E. cbn [app] in E. rewrite E, <- !app_assoc.
  f_equal. clear E Hc Hne. revert Hd. induction Hr as [|c0 n0 cs0 ns0 H0 Hr0 IHr]; intro Hd; [reflexivity|].
  cbn [fold_right] in Hd. cbn [map concat flat_map]. rewrite lrender_app, <- app_assoc, <- IHr by lia.
  rewrite app_assoc, (cmd_layout c0 n0 H0 f 0 [10%N] ltac:(lia)), <- app_assoc. reflexivity.
Qed.

Lemma canon_test_pr : forall t n, canon_test t n -> test_pr t.
Proof.
  fix IH 3. intros t n H. destruct H as [d args am em Hid Hty Hs|d a t' n' Hid Hty Ha Hnt Ht|d a ts ns Hid Hty Ha Htl Hne Hall].
  - constructor; [exact Hid|]. apply (slots_args_pr _ _ _ _ _ _ Hs).
  - constructor; [exact Hid|]. apply (IH t' n' Ht).
  - constructor; [exact Hid|exact Hne|]. clear Hne.
    induction Hall as [|t0 n0 ts0 ns0 H0 Hr IHr]; constructor; [apply (IH t0 n0 H0)|exact IHr].
Qed.

Lemma canon_cmd_pr : forall c n, canon_cmd c n -> cmd_pr c.
Proof.
  fix IH 3. intros c n H.
  assert (G : forall body ns, Forall2 canon_cmd body ns -> Forall cmd_pr body).
  { intros body ns Hb. induction Hb as [|c0 n0 b0 ns0 H0 Hr IHr]; constructor; [apply (IH c0 n0 H0)|exact IHr]. }
  destruct H as [d args am em Hid Hty Hch Hs|d a t nt body ns Hid Hty Hch Ha Hnt Ht Hb|d body ns Hid Hty Hch Ha Hb].
  - constructor; [exact Hid|]. apply (slots_args_pr _ _ _ _ _ _ Hs).
  - constructor; [exact Hid|apply (canon_test_pr t nt Ht)|apply (G body ns Hb)].
  - constructor; [exact Hid|apply (G body ns Hb)].
Qed.

Lemma canon_cmds_pr : forall cs ns, Forall2 canon_cmd cs ns -> Forall cmd_pr cs.
Proof. intros cs ns H. induction H as [|c n cs ns H0 _ IH]; constructor; [apply (canon_cmd_pr c n H0)|exact IH]. Qed.

(* the text printed for a tree that stands for the script [cs] (the tree need not be the one the parser builds:
   a list may be stored as its text) parses to the tree of [cs] *)
(* [cs <> []]: the layout of the empty script is one line feed, [tosieve_all f []] is empty *)
Theorem print_parses : forall T cs ns nsp L' f,
  twf_tables T = true ->
  wf_cmds T [] None cs nsp L' -> Forall2 canon_cmd cs ns -> cs <> [] ->
  fold_right (fun x m => Nat.max (dc x) m) 0 cs <= f ->
  parse T (tosieve_all f ns) = Accept nsp.
Proof.
  intros T cs ns nsp L' f HT Hwf Hc Hne Hf.
  rewrite (tosieve_layout cs ns f Hc Hne Hf).
  exact (layout_parses T cs nsp L' HT Hwf (canon_cmds_pr cs ns Hc)).
Qed.

(* C04, tree level: the text that the model of Command.tosieve prints for the tree of a well-formed script in
   canonical form (names as in the definitions, arguments in definition order) is accepted and parses to
   exactly that tree; hence printing the re-parsed tree gives the same text again (fixed point) *)
Theorem print_parse_roundtrip : forall T cs ns L' f,
  twf_tables T = true ->
  wf_cmds T [] None cs ns L' -> Forall2 canon_cmd cs ns -> cs <> [] ->
  fold_right (fun x m => Nat.max (dc x) m) 0 cs <= f ->
  parse T (tosieve_all f ns) = Accept ns.
Proof. intros T cs ns L' f. exact (print_parses T cs ns ns L' f). Qed.

Corollary print_fixed_point : forall T cs ns L' f,
  twf_tables T = true ->
  wf_cmds T [] None cs ns L' -> Forall2 canon_cmd cs ns -> cs <> [] ->
  fold_right (fun x m => Nat.max (dc x) m) 0 cs <= f ->
  match parse T (tosieve_all f ns) with
  | Accept ns' => tosieve_all f ns' = tosieve_all f ns
  | _ => False
  end.
Proof.
  intros T cs ns L' f HT Hwf Hc Hne Hf. rewrite (print_parse_roundtrip T cs ns L' f HT Hwf Hc Hne Hf). reflexivity.
Qed.

Print Assumptions tosieve_layout.
Print Assumptions print_parse_roundtrip.

(* constructors with names and maps as equations (for concrete trees) *)
Lemma ct_simple' : forall name d args am em,
  name = d_name d -> ident_ok name = true -> d_type d = CTest -> slots_args (sepw name) d am em (d_args d) args ->
  canon_test (GSimple name args) (Node d am em [] []).
Proof. intros; subst; constructor; assumption. Qed.
Lemma ct_not' : forall name d a t' n' am,
  name = d_name d -> ident_ok name = true -> d_type d = CTest -> d_args d = [a] -> atype_mem TyTag (a_type a) = false ->
  am = [(a_name a, VTest n')] ->
  canon_test t' n' -> canon_test (GNot name t') (Node d am [] [] []).
Proof. intros; subst; eapply ct_not; eassumption. Qed.
Lemma ct_list' : forall name d a ts ns am,
  name = d_name d -> ident_ok name = true -> d_type d = CTest -> d_args d = [a] -> a_type a = [TyTestList] -> ts <> [] ->
  am = [(a_name a, VTests ns)] ->
  Forall2 canon_test ts ns -> canon_test (GList name ts) (Node d am [] [] []).
Proof. intros; subst; eapply ct_list; eassumption. Qed.
Lemma cc_act' : forall name d args am em,
  name = d_name d -> ident_ok name = true -> d_type d <> CTest -> d_accept_children d = false ->
  slots_args (sepw name) d am em (d_args d) args -> canon_cmd (GAct name args) (Node d am em [] []).
Proof. intros; subst; constructor; assumption. Qed.
Lemma cc_ctl' : forall name d a t nt body ns am,
  name = d_name d -> ident_ok name = true -> d_type d = CControl -> d_accept_children d = true -> d_args d = [a] ->
  atype_mem TyTag (a_type a) = false -> am = [(a_name a, VTest nt)] -> canon_test t nt -> Forall2 canon_cmd body ns ->
  canon_cmd (GCtl name t body) (Node d am [] ns []).
Proof. intros; subst; eapply cc_ctl; eassumption. Qed.
Lemma cc_else' : forall name d body ns,
  name = d_name d -> ident_ok name = true -> d_type d = CControl -> d_accept_children d = true -> d_args d = [] ->
  Forall2 canon_cmd body ns -> canon_cmd (GElse name body) (Node d [] [] ns []).
Proof. intros; subst; eapply cc_else; eassumption. Qed.

(* hash comments before top-level commands (the form FiltersSet.tosieve writes: "# Filter: name" on a line of its
   own before each filter) *)

Fixpoint lt_cms (w : bytes) (cms : list bytes) : list ltok :=
  match cms with [] => [] | x :: r => (w, THashComment, x) :: lt_cms [10%N] r end.

Definition lt_top (w : bytes) (x : list bytes * gcmd) : list ltok :=
  lt_cms w (fst x) ++ lt_cmd 0 (match fst x with [] => w | _ => [10%N] end) (snd x).

(* a top-level item: extra white space written before it (FiltersSet.tosieve leaves a blank line after the require
   line), its comment lines, its command *)
Definition xtop := (bytes * (list bytes * gcmd))%type.

Fixpoint lt_tops (w : bytes) (tops : list xtop) : list ltok :=
  match tops with [] => [] | x :: r => lt_top (w ++ fst x) (snd x) ++ lt_tops [10%N] r end.

Definition tops_text (tops : list xtop) : bytes := lrender (lt_tops [] tops) ++ [10%N].

Lemma ltoks_cms : forall cms w, ltoks (lt_cms w cms) = ctoks cms.
Proof. induction cms as [|x r IH]; intro w; [reflexivity|]. cbn [lt_cms ctoks map]. rewrite ltoks_cons. f_equal. apply IH. Qed.

Lemma ltoks_tops : forall tops w, ltoks (lt_tops w tops) = flat_map toks_top (map snd tops).
Proof.
  induction tops as [|[ex [cms c]] r IH]; intro w; [reflexivity|].
  cbn [lt_tops flat_map map fst snd]. unfold lt_top. cbn [fst snd]. rewrite !ltoks_app, ltoks_cms, ltoks_cmd, IH.
  change (toks_top (cms, c)) with (ctoks cms ++ toks_cmd c). rewrite <- app_assoc. reflexivity.
Qed.

Definition top_pr (x : xtop) : Prop := all_space (fst x) /\ Forall hash_ok (fst (snd x)) /\ cmd_pr (snd (snd x)).

Lemma lt_cmd_head : forall c ind w, exists name r, lt_cmd ind w c = (w ++ sp ind, TIdentifier, name) :: r.
Proof. intros [name args|name t body|name body] ind w; cbn [lt_cmd]; eauto. Qed.

Lemma lchain_cms : forall cms w X, all_space w -> Forall hash_ok cms -> (exists t, X = 10%N :: t) -> lchain (lt_cms w cms) X.
Proof.
  induction cms as [|x r IH]; intros w X Hw Hall HX; [exact I|].
  inversion Hall as [|x' r' Hx Hr]; subst. cbn [lt_cms lchain].
  split; [exact Hw|]. split; [exact Hx|]. split; [|apply IH; auto with space].
  destruct r as [|y r2]; cbn [lt_cms lrender app]; right; [destruct HX as (t & ->)|]; eexists; reflexivity.
Qed.

Lemma lchain_tops : forall tops w X, all_space w -> Forall top_pr tops -> lchain (lt_tops w tops) X.
Proof.
  induction tops as [|[ex [cms c]] r IH]; intros w X Hw Hall; [exact I|].
  inversion Hall as [|x' r' [Hex [Hcm Hc]] Hr]; subst. cbn [fst snd] in *. cbn [lt_tops fst snd]. unfold lt_top. cbn [fst snd].
  assert (Hw' : all_space (w ++ ex)) by (apply space_app; assumption).
  rewrite <- app_assoc. apply lchain_app.
  - destruct cms as [|c1 cr]; [exact I|].
    apply lchain_cms; [exact Hw'|exact Hcm|].
    destruct (lt_cmd_head c 0 [10%N]) as (nm & r0 & E). rewrite lrender_app, E. cbn [lrender app]. eexists. reflexivity.
  - apply lchain_app; [apply lchain_cmd; [exact Hc|destruct cms; auto with space]|apply IH; auto with space].
Qed.

Theorem tops_lex : forall tops, Forall top_pr tops ->
  snd (lex (tops_text tops)) = None /\ map strip_pos (fst (lex (tops_text tops))) = flat_map toks_top (map snd tops).
Proof.
  intros tops Hp. unfold tops_text.
  destruct (lex_lrender (lt_tops [] tops) [10%N] (lchain_tops tops [] [10%N] space_nil Hp) eq_refl) as (A & B).
  rewrite ltoks_tops in B. auto.
Qed.

Theorem tops_parse : forall T tops ns L',
  twf_tables T = true -> wf_tops T [] None (map snd tops) ns L' -> Forall top_pr tops ->
  parse T (tops_text tops) = Accept ns.
Proof.
  intros T tops ns L' HT Hwf Hp. destruct (tops_lex tops Hp) as (A & B).
  exact (parse_commented_script T (tops_text tops) (map snd tops) ns L' HT A B Hwf).
Qed.

(* what FiltersSet.tosieve writes: for each item the extra white space, its comment lines, then its tree *)
Definition xitem := (bytes * (list bytes * node))%type.
Definition set_text (f : nat) (items : list xitem) : bytes :=
  concat (map (fun x => fst x ++ concat (map (fun c => c ++ [10%N]) (fst (snd x))) ++ tosieve f (snd (snd x)) 0) items).

Definition top_canon (x : xtop) (y : xitem) : Prop :=
  fst x = fst y /\ fst (snd x) = fst (snd y) /\ canon_cmd (snd (snd x)) (snd (snd y)).

Lemma cms_text : forall cms w R, cms <> [] ->
  w ++ concat (map (fun c => c ++ [10%N]) cms) ++ R = lrender (lt_cms w cms) ++ 10%N :: R.
Proof.
  induction cms as [|x r IH]; intros w R Hne; [congruence|].
  cbn [map concat lt_cms lrender]. destruct r as [|y r2].
  - cbn [map concat lt_cms lrender app]. rewrite <- !app_assoc. reflexivity.
  - rewrite <- !app_assoc. rewrite <- (IH [10%N] R) by discriminate. rewrite <- ?app_assoc. reflexivity.
Qed.

Definition tops_depth (tops : list xtop) : nat := fold_right (fun x m => Nat.max (dc (snd (snd x))) m) 0 tops.

Theorem set_layout : forall tops items f,
  Forall2 top_canon tops items -> tops <> [] -> tops_depth tops <= f ->
  set_text f items = tops_text tops.
Proof.
  intros tops items f H Hne Hd. unfold tops_text, tops_depth in *.
  assert (G : forall w, tops <> [] -> w ++ set_text f items = lrender (lt_tops w tops) ++ [10%N]); [|exact (G [] Hne)].
  clear Hne. induction H as [|[ex [cms c]] [ex' [cms' n]] tops items [He [Hc Hn]] Hr IH]; intros w Hne; [congruence|].
  cbn [fst snd] in *. subst ex' cms'. cbn [fold_right fst snd] in Hd.
  assert (Tl : [10%N] ++ set_text f items = lrender (lt_tops [10%N] tops) ++ [10%N]).
  { destruct Hr as [|t0 i0 tops0 items0 H0 Hr0]; [reflexivity|]. apply IH; [lia|discriminate]. }
  unfold set_text. cbn [map concat fst snd]. fold (set_text f items).
  cbn [lt_tops fst snd]. unfold lt_top. cbn [fst snd]. rewrite !lrender_app.
  destruct cms as [|c1 cr].
  - cbn [map concat lt_cms lrender app].
    rewrite <- !app_assoc. rewrite (app_assoc w ex), (app_assoc (w ++ ex)).
    rewrite (cmd_layout c n Hn f 0 (w ++ ex) ltac:(lia)), <- !app_assoc, Tl. reflexivity.
  - rewrite <- !app_assoc. rewrite (app_assoc w ex). rewrite (cms_text (c1 :: cr) (w ++ ex) _ ltac:(discriminate)).
    f_equal.
    change (10%N :: tosieve f n 0 ++ set_text f items) with (([10%N] ++ tosieve f n 0) ++ set_text f items).
    rewrite (cmd_layout c n Hn f 0 [10%N] ltac:(lia)), <- !app_assoc, Tl. reflexivity.
Qed.

(* the text FiltersSet.tosieve writes for trees that stand for a commented script parses to the tree of that
   script, every comment attached (stripped) to the command it precedes *)
Theorem set_parses : forall T tops items ns L' f,
  twf_tables T = true -> wf_tops T [] None (map snd tops) ns L' ->
  Forall2 top_canon tops items ->
  Forall (fun x => all_space (fst x) /\ Forall hash_ok (fst (snd x))) tops -> tops <> [] ->
  tops_depth tops <= f ->
  parse T (set_text f items) = Accept ns.
Proof.
  intros T tops items ns L' f HT Hwf Hc Hh Hne Hf.
  rewrite (set_layout tops items f Hc Hne Hf).
  apply (tops_parse T tops ns L' HT Hwf).
  clear Hwf Hne Hf. induction Hc as [|x y tops items [_ [_ H0]] Hr IHr]; [constructor|].
  inversion Hh as [|x' r' [Hx1 Hx2] Hr']; subst.
  constructor; [split; [exact Hx1|split; [exact Hx2|apply (canon_cmd_pr _ _ H0)]]|apply IHr; exact Hr'].
Qed.

Print Assumptions set_parses.

End Sep.

(* the separator of Command.tosieve for trees built by the parser: a blank after every comma *)
Definition std_sep : bytes -> bytes := fun _ => [32%N].
Lemma std_sep_space : forall name, all_space (std_sep name).
Proof. reflexivity. Qed.

(* What a command object holds for one slot of its definition: nothing, a tag, a tag with
   its parameter, a positional value; the maps of the object list the slots in definition order. *)
Inductive sentry := SNone | STag (t : bytes) | STagP (t : bytes) (v : aval) | SPos (v : aval).

Definition se_am (k : bytes) (e : sentry) : list (bytes * aval) :=
  match e with SNone => [] | STag t | STagP t _ => [(k, VStr t)] | SPos v => [(k, v)] end.
Definition se_em (k : bytes) (e : sentry) : list (bytes * aval) :=
  match e with STagP _ v => [(k, v)] | _ => [] end.

Fixpoint am_of (defs : list argdef) (es : list sentry) : list (bytes * aval) :=
  match defs, es with a :: ds, e :: es' => se_am (a_name a) e ++ am_of ds es' | _, _ => [] end.
Fixpoint em_of (defs : list argdef) (es : list sentry) : list (bytes * aval) :=
  match defs, es with a :: ds, e :: es' => se_em (a_name a) e ++ em_of ds es' | _, _ => [] end.

Section Slots.
Variable sw : bytes.
Variable D : cmddef.

Inductive slot_ok (a : argdef) : sentry -> list argument -> Prop :=
| so_none : slot_ok a SNone []
| so_tag : forall t, atype_mem TyTag (a_type a) = true -> tag_ok t = true -> slot_ok a (STag t) [(TyTag, VStr t)]
| so_tagp : forall t v ex q, atype_mem TyTag (a_type a) = true -> tag_ok t = true -> a_extra a = Some ex ->
    val_arg sw D (a_name a) (has_string_ex (ex_type ex)) v q -> slot_ok a (STagP t v) [(TyTag, VStr t); q]
| so_pos : forall v q, atype_mem TyTag (a_type a) = false ->
    val_arg sw D (a_name a) (has_string_list (a_type a)) v q -> slot_ok a (SPos v) [q].

Inductive slots_ok : list argdef -> list sentry -> list argument -> Prop :=
| sk_nil : slots_ok [] [] []
| sk_cons : forall a ds e es p ps, slot_ok a e p -> slots_ok ds es ps -> slots_ok (a :: ds) (e :: es) (p ++ ps).

Lemma am_of_keys : forall k defs es, ~ In k (map a_name defs) -> assoc_get k (am_of defs es) = None /\ assoc_get k (em_of defs es) = None.
Proof.
  induction defs as [|a ds IH]; intros es H; [split; reflexivity|]. destruct es as [|e es]; [split; reflexivity|].
  cbn [map In] in H. cbn [am_of em_of]. rewrite !assoc_get_app.
  assert (N : beq k (a_name a) = false) by (apply beq_neq; intro E; apply H; left; symmetry; exact E).
  destruct (IH es) as (A & B); [intro X; apply H; right; exact X|]. rewrite A, B.
  destruct e; cbn [se_am se_em assoc_get]; rewrite ?N; split; reflexivity.
Qed.

Theorem slots_in_order : forall defs es args,
  NoDup (map a_name defs) -> slots_ok defs es args -> slots_args sw D (am_of defs es) (em_of defs es) defs args.
Proof.
  intros defs es args Hnd H.
  enough (G : forall pa pe, (forall a, In a defs -> assoc_get (a_name a) pa = None /\ assoc_get (a_name a) pe = None) ->
              slots_args sw D (pa ++ am_of defs es) (pe ++ em_of defs es) defs args)
    by (apply (G [] []); intros; split; reflexivity).
  induction H as [|a ds e es p ps Hs Hr IH]; intros pa pe Hp; [apply sa_nil|].
  inversion Hnd as [|x l Hx Hl]; subst.
  destruct (Hp a (or_introl eq_refl)) as (Pa & Pe). destruct (am_of_keys (a_name a) ds es Hx) as (Ra & Re).
  assert (Ga : forall e', assoc_get (a_name a) (pa ++ se_am (a_name a) e' ++ am_of ds es) = assoc_get (a_name a) (se_am (a_name a) e'))
    by (intro e'; rewrite !assoc_get_app, Pa, Ra; destruct (assoc_get (a_name a) (se_am (a_name a) e')); reflexivity).
  assert (Ge : forall e', assoc_get (a_name a) (pe ++ se_em (a_name a) e' ++ em_of ds es) = assoc_get (a_name a) (se_em (a_name a) e'))
    by (intro e'; rewrite !assoc_get_app, Pe, Re; destruct (assoc_get (a_name a) (se_em (a_name a) e')); reflexivity).
  assert (Rest : slots_args sw D (pa ++ am_of (a :: ds) (e :: es)) (pe ++ em_of (a :: ds) (e :: es)) ds ps).
  { cbn [am_of em_of]. rewrite !app_assoc. apply (IH Hl). intros a' Ha'. rewrite !assoc_get_app.
    destruct (Hp a' (or_intror Ha')) as (-> & ->).
    assert (N : beq (a_name a') (a_name a) = false) by (apply beq_neq; intro E; apply Hx; rewrite <- E; apply in_map, Ha').
    destruct e; cbn [se_am se_em assoc_get]; rewrite ?N; split; reflexivity. }
  cbn [am_of em_of] in *.
  destruct Hs as [|t Ht Hk|t v ex q Ht Hk Hex Hv|v q Ht Hv]; cbn [app].
  - apply sa_absent; [rewrite Ga; reflexivity|exact Rest].
  - apply sa_tag; [exact Ht|rewrite Ga; cbn; rewrite beq_refl; reflexivity|exact Hk|left; rewrite Ge; reflexivity|exact Rest].
  - eapply sa_tag_param; [exact Ht|rewrite Ga; cbn; rewrite beq_refl; reflexivity|exact Hk
                         |rewrite Ge; cbn; rewrite beq_refl; reflexivity|exact Hex|exact Hv|exact Rest].
  - eapply sa_pos; [exact Ht|rewrite Ga; cbn; rewrite beq_refl; reflexivity|exact Hv|exact Rest].
Qed.

Lemma sk_skip : forall a ds es ps, slots_ok ds es ps -> slots_ok (a :: ds) (SNone :: es) ps.
Proof. intros a ds es ps H. apply (sk_cons a ds SNone es [] ps (so_none a) H). Qed.

Lemma sk_last : forall a e p, slot_ok a e p -> slots_ok [a] [e] p.
Proof. intros a e p H. rewrite <- (app_nil_r p). apply (sk_cons a [] e [] p [] H sk_nil). Qed.

End Slots.

Fixpoint distinct (l : list bytes) : bool := match l with [] => true | x :: t => negb (mem x t) && distinct t end.

Lemma distinct_NoDup : forall l, distinct l = true -> NoDup l.
Proof.
  induction l as [|x t IH]; cbn [distinct]; intro H; constructor; apply andb_true_iff in H as [A B]; [|apply IH, B].
  intro I. apply mem_In in I. rewrite I in A. discriminate.
Qed.
