(* RejectFacts.v — the rejection side of C01 and the "offending token" clauses of C18.

   After every prefix of a script of the grammar (wf_prefix: complete commands and `if <test> {` / `else {` openers,
   nested to any depth) the machine stands between commands (prefix_ready).  From there, and from the positions inside
   a command that the grammar reaches, each class of offending token named by C01 / C18 stops the parse at that token,
   whatever follows it: the `*_rejected` theorems, one per class.  For an argument list that the specification refuses
   (illegal_arguments_rejected) only this much is proved: the parse stops at a token of one of the arguments, with some
   error.  Second clause of C18: a rejection is never reported inside a prefix of the grammar, nor before the first
   token after it (reject_not_in_prefix, reject_not_before). *)
From Coq Require Import String.
From Coq Require Import List NArith Bool Arith Lia.
From SV Require Import Bytes Lexer Tables ArgCheck ArgSpec Machine MachineFacts ArgCheckFacts PositionFacts TotalFacts
  CompleteFacts CompleteTree.
Import ListNotations.
Local Open Scope nat_scope.

Local Arguments check_next_arg : simpl never.
Local Arguments iscomplete : simpl never.
Local Arguments get_command_instance : simpl never.
Local Arguments check_completion : simpl never.
Local Arguments up : simpl never.
Local Arguments attach_into : simpl never.

(* the transition refuses the token with error e (a False return is reported as "unexpected token") *)
Definition stops (r : mres) (e : perr) : Prop :=
  r = MErr e \/ ((exists s, r = MFalse s) /\ e = EUnexpectedToken).

Lemma steps_then_reject : forall T pre st st' fuel t rest err endpos lastlen e,
  steps T st (map strip_pos pre) = Some st' -> stops (process T st' t) e -> length pre < fuel ->
  run_tokens fuel T (pre ++ t :: rest) err endpos lastlen st = Reject e (t_pos t) (length (t_val t)).
Proof.
  intros T pre st st' fuel t rest err endpos lastlen e H Hstop Hf.
  destruct (steps_then_run T pre st st' fuel (t :: rest) err endpos lastlen H Hf) as (ll & ->).
  destruct (fuel - length pre) eqn:X; [lia|]. rewrite run_tokens_S_cons.
  destruct Hstop as [-> |((s & ->) & ->)]; reflexivity.
Qed.

Lemma lex_order : forall text a t b,
  fst (lex text) = a ++ t :: b ->
  (forall u, In u b -> t_pos t < t_pos u) /\ (forall p, snd (lex text) = Some p -> t_pos t < p).
Proof.
  intros text a t b H. unfold lex in *.
  destruct (lex_all (S (length text)) 0 text) as [toks err] eqn:E. cbn [fst snd] in *.
  destruct (lex_all_order _ _ _ _ _ E) as (_ & _ & I3).
  destruct (I3 a t b H) as (J1 & J2).
  assert (Hin : In t toks) by (rewrite H; apply in_or_app; right; left; reflexivity).
  assert (Hlen : 1 <= length (t_val t)).
  { pose proof (lex_token_at text t) as X. unfold lex in X. rewrite E in X. apply X. exact Hin. }
  split; [intros u Hu; specialize (J1 u Hu); lia|intros p Hp; specialize (J2 p Hp); lia].
Qed.

Theorem reject_after_prefix : forall T text pre t rest st e,
  fst (lex text) = pre ++ t :: rest ->
  steps T p_init (map strip_pos pre) = Some st -> stops (process T st t) e ->
  parse T text = Reject e (t_pos t) (length (t_val t)).
Proof.
  intros T text pre t rest st e Hl Hs Hstop.
  rewrite parse_run_tokens, Hl.
  apply (steps_then_reject T pre p_init st _ t rest _ _ _ e Hs Hstop).
  pose proof (token_count text) as Hc. rewrite Hl, app_length in Hc. cbn in Hc. lia.
Qed.

Definition not_comment (k : tkind) : bool :=
  match k with THashComment | TBracketComment => false | _ => true end.

Section Between.
  Variable T : tables.

  Lemma process_between : forall st t,
    ready st -> not_comment (t_kind t) = true -> process T st t = m_command_none T st t.
  Proof.
    intros st t (Hc & He & _) Hk. rewrite process_eq. unfold expect_then. rewrite He, m_command_eq, Hc.
    destruct (t_kind t); try discriminate Hk; reflexivity.
  Qed.

  Lemma cmd_unknown : forall st t e,
    ready st -> t_kind t = TIdentifier -> get_command_instance T (p_loaded st) (t_val t) = inr e ->
    stops (process T st t) e.
  Proof.
    intros st t e Hr Hk Hg. left. rewrite (process_between st t Hr) by (rewrite Hk; reflexivity).
    unfold m_command_none. rewrite Hk, Hg. reflexivity.
  Qed.

  Lemma cmd_is_test : forall st t d,
    ready st -> t_kind t = TIdentifier -> get_command_instance T (p_loaded st) (t_val t) = inl d -> d_type d = CTest ->
    stops (process T st t) (EFirstCommand (d_name d)).
  Proof.
    intros st t d Hr Hk Hg Hty. left. rewrite (process_between st t Hr) by (rewrite Hk; reflexivity).
    unfold m_command_none. rewrite Hk, Hg, Hty. reflexivity.
  Qed.

  Definition starts_nothing (k : tkind) : bool :=
    match k with
    | TIdentifier | TRightCBracket | THashComment | TBracketComment => false
    | _ => true
    end.

  Lemma cmd_bad_token : forall st t,
    ready st -> starts_nothing (t_kind t) = true -> stops (process T st t) EUnexpectedToken.
  Proof.
    intros st t Hr Hk. right. split; [|reflexivity]. exists st.
    rewrite (process_between st t Hr) by (destruct (t_kind t); try discriminate Hk; reflexivity).
    unfold m_command_none. destruct (t_kind t); try discriminate; reflexivity.
  Qed.

  Lemma cmd_stray_rcb : forall st t,
    ready st -> t_kind t = TRightCBracket ->
    match p_brackets st with BRCBracket :: _ => False | _ => True end ->
    exists e, (e = EBracketNone \/ e = EBracketMismatch) /\ stops (process T st t) e.
  Proof.
    intros st t Hr Hk Hb. rewrite (process_between st t Hr) by (rewrite Hk; reflexivity).
    unfold m_command_none, pop_bracket. rewrite Hk.
    destruct (p_brackets st) as [|[] b]; try contradiction; eexists; (split; [|left; reflexivity]); auto.
  Qed.
End Between.

Definition stands (st : pstate) (L : list bytes) (prev : option bytes) (k : nat) : Prop :=
  ready st /\ p_loaded st = L /\ prev_name (place_of st) = prev /\
  length (p_brackets st) = k /\ Forall (fun b => b = BRCBracket) (p_brackets st).

Section Prefix.
  Variable T : tables.
  Hypothesis HT : twf_tables T = true.

  Lemma open_ctl : forall L name d a t nt st,
    get_command_instance T L name = inl d -> d_type d = CControl -> d_accept_children d = true ->
    d_args d = [a] -> is_t1 a = true -> wf_test T L t nt ->
    ready st -> p_loaded st = L ->
    exists stD, steps T st (mk TIdentifier name :: toks_test t ++ [tk_lcb]) = Some stD /\
                ready stD /\ p_loaded stD = L /\ prev_name (place_of stD) = None /\
                p_brackets stD = BRCBracket :: p_brackets st /\
                exists C, p_stack stD = C :: p_stack st /\ f_def C = d /\ p_result stD = p_result st.
  Proof.
    intros L name d a t nt st Hg Hty Hch Ha Ht1 Hwt Hr Hl.
    destruct (ctl_after_test T HT L name d a t nt st Hg Hty Hch Ha Ht1 (run_test T L HT t nt Hwt) Hr Hl)
      as (stB & C2 & PB & SB & CB & EB & (V1 & V2 & V3 & V4) & G1 & G2 & G3 & G4 & G5 & G6 & G7).
    destruct (open_block T stB C2 (p_stack st) tk_lcb SB CB ltac:(rewrite EB; destruct (kind_of t); [reflexivity|exact I])
                eq_refl ltac:(unfold is_control; rewrite G2, Hty; reflexivity) ltac:(rewrite G2; exact Hch) G4
                ltac:(rewrite G2; eapply gci_twf; eauto) G7) as (PD & RD & PrD).
    eexists. split; [rewrite app_comm_cons, steps_app, PB; cbn [steps]; rewrite PD; reflexivity|].
    split; [exact RD|]. split; [pcbn; congruence|]. split; [exact PrD|]. split; [pcbn; rewrite V1; reflexivity|].
    exists C2. pcbn. auto.
  Qed.

  Lemma ctl_test_done : forall L name d a t nt st,
    get_command_instance T L name = inl d -> d_type d = CControl -> d_accept_children d = true ->
    d_args d = [a] -> is_t1 a = true -> wf_test T L t nt -> kind_of t = Kcc ->
    ready st -> p_loaded st = L ->
    exists stB, steps T st (mk TIdentifier name :: toks_test t) = Some stB /\ p_expected stB = Some [TLeftCBracket].
  Proof.
    intros L name d a t nt st Hg Hty Hch Ha Ht1 Hwt Hkc Hr Hl.
    destruct (ctl_after_test T HT L name d a t nt st Hg Hty Hch Ha Ht1 (run_test T L HT t nt Hwt) Hr Hl)
      as (stB & C2 & PB & _ & _ & EB & _).
    exists stB. rewrite Hkc in EB. auto.
  Qed.

  Lemma open_else : forall L name d st,
    get_command_instance T L name = inl d -> d_type d = CControl -> d_accept_children d = true ->
    d_args d = [] -> ready st -> p_loaded st = L ->
    exists stD, steps T st [mk TIdentifier name; tk_lcb] = Some stD /\
                ready stD /\ p_loaded stD = L /\ prev_name (place_of stD) = None /\
                p_brackets stD = BRCBracket :: p_brackets st /\
                exists C, p_stack stD = C :: p_stack st /\ f_def C = d /\ p_result stD = p_result st.
  Proof.
    intros L name d st Hg Hty Hch Ha Hr Hl.
    destruct (else_after_name T HT L name d st Hg Hty Hch Ha Hr Hl) as (P0 & Hctl & Hcomp & Htw).
    set (C := new_frame d (at_in (p_stack st))) in *.
    destruct (open_block T (with_cstate CArgs (with_stack (C :: p_stack st) st)) C (p_stack st) tk_lcb eq_refl eq_refl
                ltac:(pcbn; rewrite (proj1 (proj2 Hr)); exact I) eq_refl Hctl Hch Hcomp Htw eq_refl) as (PD & RD & PrD).
    eexists. split; [cbn [steps]; rewrite P0, PD; reflexivity|].
    split; [exact RD|]. split; [exact Hl|]. split; [exact PrD|]. split; [reflexivity|]. exists C. auto.
  Qed.

  (* prefixes: complete commands and block openers, nested to any depth.  wf_prefix toks L prev depth *)
  Inductive wf_prefix : list token -> list bytes -> option bytes -> nat -> Prop :=
  | wp_nil : wf_prefix [] [] None 0
  | wp_cmd : forall pre L prev k c n L',
      wf_prefix pre L prev k -> wf_cmd T L prev c n L' ->
      wf_prefix (pre ++ toks_cmd c) L' (Some (d_name (node_def n))) k
  | wp_open : forall pre L prev k name d a t nt,
      wf_prefix pre L prev k ->
      get_command_instance T L name = inl d -> d_type d = CControl -> d_accept_children d = true ->
      d_args d = [a] -> is_t1 a = true -> wf_test T L t nt ->
      wf_prefix (pre ++ mk TIdentifier name :: toks_test t ++ [tk_lcb]) L None (S k)
  | wp_open_else : forall pre L prev k name d,
      wf_prefix pre L prev k ->
      get_command_instance T L name = inl d -> d_type d = CControl -> d_accept_children d = true ->
      d_args d = [] ->
      wf_prefix (pre ++ [mk TIdentifier name; tk_lcb]) L None (S k).

  Theorem prefix_ready : forall pre L prev k,
    wf_prefix pre L prev k ->
    exists st, steps T p_init pre = Some st /\ ready st /\ p_loaded st = L /\ prev_name (place_of st) = prev /\
               length (p_brackets st) = k /\ Forall (fun b => b = BRCBracket) (p_brackets st).
  Proof.
    intros pre L prev k H. induction H as [|pre L prev k c n L' Hp IH Hc|pre L prev k name d a t nt Hp IH Hg Hty Hch Ha Ht1 Hwt
                                          |pre L prev k name d Hp IH Hg Hty Hch Ha].
    - exists p_init. unfold ready, p_init. cbn. repeat split; constructor.
    - destruct IH as (st & S1 & R1 & L1 & P1 & B1 & A1).
      destruct (run_cmd T HT L prev c n L' Hc st R1 L1 P1) as (st' & S2 & C2 & E2 & L2 & B2 & PL2).
      exists st'. rewrite steps_app, S1, S2.
      destruct R1 as (_ & _ & Ho).
      destruct (emit1_facts (place_of st) n Ho) as (Ho' & Hprev').
      split; [reflexivity|].
      assert (Hst : p_stack st' = fst (fst (emit1 (place_of st) n))) by (rewrite <- PL2; reflexivity).
      split; [unfold ready; rewrite Hst; auto|].
      split; [exact L2|]. split; [rewrite PL2; exact Hprev'|]. rewrite B2. auto.
    - destruct IH as (st & S1 & R1 & L1 & P1 & B1 & A1).
      destruct (open_ctl L name d a t nt st Hg Hty Hch Ha Ht1 Hwt R1 L1) as (stD & S2 & R2 & L2 & P2 & B2 & _).
      exists stD. rewrite steps_app, S1, S2, B2. cbn [length].
      split; [reflexivity|]. split; [exact R2|]. split; [exact L2|]. split; [exact P2|]. split; [congruence|]. constructor; [reflexivity|exact A1].
    - destruct IH as (st & S1 & R1 & L1 & P1 & B1 & A1).
      destruct (open_else L name d st Hg Hty Hch Ha R1 L1) as (stD & S2 & R2 & L2 & P2 & B2 & _).
      exists stD. rewrite steps_app, S1, S2, B2. cbn [length].
      split; [reflexivity|]. split; [exact R2|]. split; [exact L2|]. split; [exact P2|]. split; [congruence|]. constructor; [reflexivity|exact A1].
  Qed.
End Prefix.

Section Inside.
  Variable T : tables.

  (* a token of a kind other than the one(s) the machine waits for: "X found while Y expected" *)
  Lemma expected_mismatch : forall st t l,
    p_expected st = Some l -> kind_mem (t_kind t) l = false -> not_comment (t_kind t) = true ->
    stops (process T st t) EExpected.
  Proof.
    intros st t l He Hk Hc. left. rewrite process_eq. unfold expect_then. rewrite He, Hk.
    destruct (t_kind t); try discriminate Hc; reflexivity.
  Qed.

  Lemma process_test_name : forall st t,
    p_cstate st = CArgs -> passes (p_expected st) TIdentifier -> t_kind t = TIdentifier ->
    process T st t = on_false t (m_arguments_test T (with_expected None st) t).
  Proof.
    intros st t Hc Hp Hk. rewrite process_passes by (rewrite Hk; first [discriminate|exact Hp]).
    rewrite m_command_eq. pcbn. rewrite Hc, m_arguments_eq, Hk. reflexivity.
  Qed.

  Lemma ident_unknown : forall st t cur rest e,
    p_cstate st = CArgs -> p_stack st = cur :: rest -> passes (p_expected st) TIdentifier ->
    t_kind t = TIdentifier -> get_command_instance T (p_loaded st) (t_val t) = inr e ->
    stops (process T st t) e.
  Proof.
    intros st t cur rest e Hc Es Hp Hk Hg. left. rewrite (process_test_name st t Hc Hp Hk).
    unfold m_arguments_test. pcbn. rewrite Es, Hg. reflexivity.
  Qed.

  Lemma ident_not_test : forall st t cur rest d,
    p_cstate st = CArgs -> p_stack st = cur :: rest -> passes (p_expected st) TIdentifier ->
    t_kind t = TIdentifier -> get_command_instance T (p_loaded st) (t_val t) = inl d -> d_type d <> CTest ->
    stops (process T st t) (ENotTest (d_name d)).
  Proof.
    intros st t cur rest d Hc Es Hp Hk Hg Hty. left. rewrite (process_test_name st t Hc Hp Hk).
    unfold m_arguments_test. pcbn. rewrite Es, Hg. destruct (d_type d); try congruence; reflexivity.
  Qed.

  (* an action, or a control that takes no block: check_completion asks for ';' at most *)
  Definition flat (f : frame) : bool := is_action f || (is_control f && negb (d_accept_children (f_def f))).

  Lemma flat_def_eq : forall f g, f_def g = f_def f -> flat g = flat f.
  Proof. intros f g H. unfold flat, is_action, is_control. rewrite H. reflexivity. Qed.

  Record at_args (st : pstate) (f : frame) (rest : list frame) : Prop := {
    aa_stack : p_stack st = f :: rest;
    aa_cstate : p_cstate st = CArgs;
    aa_expected : p_expected st = None \/ (p_expected st = Some [TSemicolon] /\ iscomplete f None = true);
    aa_flat : flat f = true;
    aa_fi : fi f
  }.

  Lemma arg_first_token : forall a, arg_ok a ->
    exists t more, arg_toks a = t :: more /\ not_comment (t_kind t) = true /\ kind_mem (t_kind t) [TSemicolon] = false.
  Proof.
    intros [ty v] H. destruct ty as [| | | | | |o]; destruct v as [x|l|n|ns]; cbn in H; try contradiction; cbn [arg_toks];
      eexists; eexists; (split; [reflexivity|]); unfold mk; cbn [t_kind]; auto.
    destruct (str_kind_cases x) as [-> | ->]; cbn; auto.
  Qed.

  Lemma scalar_refused : forall st f rest t ty,
    cur_is st f rest ->
    (((t_kind t = TString \/ t_kind t = TMultiline) /\ ty = TyString /\ utf8_valid (t_val t) = true) \/
     (t_kind t = TNumber /\ ty = TyNumber) \/ (t_kind t = TTag /\ ty = TyTag)) ->
    match check_next_arg f ty (VStr (t_val t)) true true (p_loaded st) with
    | CnaFalse => stops (process T st t) EUnexpectedToken
    | CnaErr e => stops (process T st t) e
    | _ => True
    end.
  Proof.
    intros st f rest t ty [Es Hc He Hfi] Hk. rewrite (scalar_step T st f rest t ty Es Hc He Hk).
    destruct (check_next_arg f ty (VStr (t_val t)) true true (p_loaded st)); try exact I.
    - right. eauto.
    - left. reflexivity.
  Qed.

  (* The error e' need not be e: once a string list has completed the command, ';' is expected and the next argument
     gets EExpected where the interpreter alone answers False. *)
  Theorem args_stop : forall args st f rest e,
    at_args st f rest -> Forall arg_ok args -> feed f args (p_loaded st) = FStop e ->
    exists pre t more st' e',
      flat_map arg_toks args = pre ++ t :: more /\ steps T st pre = Some st' /\ stops (process T st' t) e'.
  Proof.
    induction args as [|a args IH]; intros st f rest e Haa Hall Hfeed; [discriminate|].
    inversion Hall as [|a' t' Ha Ht]; subst.
    destruct Haa as [Es Hc Hex Hflat Hfi].
    destruct Hex as [He|(He & _)].
    2:{ (* ';' is expected: the first token of the argument is refused *)
        destruct (arg_first_token a Ha) as (t0 & more0 & E0 & N0 & K0).
        exists [], t0, (more0 ++ flat_map arg_toks args), st, EExpected.
        cbn [flat_map app steps]. rewrite E0. split; [reflexivity|]. split; [reflexivity|].
        apply (expected_mismatch st t0 [TSemicolon] He K0 N0). }
    cbn [feed] in Hfeed.
    destruct (one_arg T st f rest a Es Hc He Ha) as (pre & t & stB & Et & Sp & P).
    { exact (cc_false_no_block f rest Hflat). }
    cbn [flat_map]. rewrite Et, <- app_assoc. cbn [app]. unfold answered in P.
    destruct (check_next_arg f (fst a) (snd a) true true (p_loaded st)) as [f1 slot| | |] eqn:E; try discriminate.
    -
      destruct P as (stX & ts & P & SX & EX & (CX & _ & LX & _)).
      destruct (cna_keeps _ _ _ _ _ _ _ _ Hfi (arg_ok_shape a Ha) E) as (Hf1 & Hd1 & _).
      assert (Hflat1 : flat f1 = true) by (rewrite (flat_def_eq f f1 Hd1); exact Hflat).
      rewrite (cc_no_block stX f1 rest ts SX Hflat1) in P.
      set (stN := if iscomplete f1 None && ts then with_expected (Some [TSemicolon]) stX else stX) in *.
      assert (Haa1 : at_args stN f1 rest).
      { unfold stN. destruct (iscomplete f1 None) eqn:Eic; destruct ts; cbn [andb]; constructor; pcbn; auto; congruence. }
      assert (Hl1 : p_loaded stN = p_loaded st) by (unfold stN; destruct (iscomplete f1 None && ts); pcbn; exact LX).
      rewrite <- Hl1 in Hfeed.
      destruct (IH _ _ _ _ Haa1 Ht Hfeed) as (pre2 & t2 & more & st' & e' & E1 & S1 & X1).
      exists (pre ++ t :: pre2), t2, more, st', e'. rewrite E1, <- app_assoc. split; [reflexivity|].
      split; [rewrite steps_app, Sp; cbn [steps]; rewrite P; exact S1|exact X1].
    - destruct P as (s & P). exists pre, t, (flat_map arg_toks args), stB, EUnexpectedToken.
      split; [reflexivity|]. split; [exact Sp|]. right. eauto.
    - exists pre, t, (flat_map arg_toks args), stB, e0.
      split; [reflexivity|]. split; [exact Sp|]. left. exact P.
  Qed.

  Theorem args_run : forall args st f rest fN,
    at_args st f rest -> Forall arg_ok args -> feed f args (p_loaded st) = FOk fN ->
    exists st', steps T st (flat_map arg_toks args) = Some st' /\ at_args st' fN rest /\
                p_loaded st' = p_loaded st /\ p_brackets st' = p_brackets st.
  Proof.
    intros args st f rest fN Haa Hall Hfeed.
    destruct args as [|a args]; [injection Hfeed as <-; exists st; auto|].
    destruct Haa as [Es Hc Hex Hflat Hfi].
    destruct Hex as [He|(_ & Hcomp)]; [|rewrite (feed_cons_incomplete _ _ _ _ _ Hfeed) in Hcomp; discriminate].
    destruct (feed_steps_no_block T (a :: args) st f rest fN Es Hc He Hfi Hflat Hall Hfeed)
      as (st' & P & S' & E' & (C' & B' & L' & _) & F' & D' & _).
    exists st'. split; [exact P|]. split; [|auto].
    constructor; auto; [congruence|rewrite (flat_def_eq f fN D'); exact Hflat].
  Qed.

  Lemma args_run_incomplete : forall args st f rest fN,
    cur_is st f rest -> Forall arg_ok args -> feed f args (p_loaded st) = FOk fN -> iscomplete fN None = false ->
    exists st', steps T st (flat_map arg_toks args) = Some st' /\ cur_is st' fN rest /\ p_loaded st' = p_loaded st.
  Proof.
    intros args st f rest fN [Es Hc He Hfi] Hall Hfeed Hinc.
    destruct (feed_steps T args st f rest fN Es Hc He Hfi Hall Hfeed)
      as [(-> & ->)|(pre & t & stB & stX & ts & Et & Sp & P & SX & EX & (CX & _ & LX & _) & FX & _)].
    - exists st. split; [reflexivity|]. split; [constructor; auto|reflexivity].
    - rewrite (cc_incomplete stX fN rest ts SX Hinc) in P.
      exists stX. split; [rewrite Et, steps_app, Sp; cbn [steps]; rewrite P; reflexivity|].
      split; [constructor; auto; congruence|exact LX].
  Qed.

  (* the tokens of a string list that is still open: items with commas, possibly a trailing comma *)
  Definition open_items (items : list bytes) (trailing_comma : bool) : list token :=
    item_toks items ++ (if trailing_comma then [mk TComma [44%N]] else []).

  (* what may not come next in an open string list: anything but a string after '[' or ','; anything but ',' or ']'
     after a string *)
  Definition list_tail_bad (items : list bytes) (tc : bool) (t : token) : Prop :=
    if match items with [] => true | _ => tc end
    then kind_mem (t_kind t) [TString] = false
    else kind_mem (t_kind t) [TComma; TRightBracket] = false.

  (* [Hcc]: the command lets '[' through (it is incomplete, or takes no block) *)
  Lemma malformed_list_stop : forall st f rest items tc t,
    p_stack st = f :: rest -> p_cstate st = CArgs -> p_expected st = None ->
    (forall st', p_stack st' = f :: rest -> check_completion st' false = MTrue st') ->
    Forall (fun s => utf8_valid s = true) items -> (items = [] -> tc = false) ->
    not_comment (t_kind t) = true -> list_tail_bad items tc t ->
    exists st', steps T st (mk TLeftBracket [91%N] :: open_items items tc) = Some st' /\ stops (process T st' t) EExpected.
  Proof.
    intros st f rest items tc t Es Hc He Hcc Hall Htc Hnc Hbad. cbn [steps].
    assert (IA : in_list (list_open st) f rest (p_brackets st) []) by (constructor; unfold list_open; pcbn; auto).
    rewrite (lbracket_step T st f rest (mk TLeftBracket [91%N]) Es Hc He eq_refl), (Hcc (list_open st) Es).
    unfold open_items, list_tail_bad in *.
    destruct items as [|i0 items'].
    - rewrite (Htc eq_refl). cbn [item_toks app steps]. eexists. split; [reflexivity|].
      apply (expected_mismatch (list_open st) t [TString]); [reflexivity|exact Hbad|exact Hnc].
    - destruct (items_steps T (i0 :: items') (list_open st) f rest (p_brackets st) [] ltac:(discriminate) Hall IA eq_refl)
        as (stB & PB & IB & EB & LB & HB & RB).
      rewrite steps_app, PB.
      destruct tc; cbn [steps].
      +
        destruct (process_comma T stB f rest (p_brackets st) _ (mk TComma [44%N]) IB) as (stC & PC & _ & EC & _);
          [rewrite EB; reflexivity|reflexivity|].
        rewrite PC. eexists. split; [reflexivity|].
        apply (expected_mismatch stC t [TString] EC Hbad Hnc).
      + eexists. split; [reflexivity|].
        apply (expected_mismatch stB t [TComma; TRightBracket] EB Hbad Hnc).
  Qed.

  Lemma block_after_flat : forall st f rest t,
    at_args st f rest -> t_kind t = TLeftCBracket -> d_non_deterministic_args (f_def f) = false ->
    exists e, stops (process T st t) e.
  Proof.
    intros st f rest t [Es Hc Hex Hflat Hfi] Hk Hnd.
    destruct Hex as [He|(He & _)].
    - exists EUnexpectedToken. right. split; [|reflexivity]. exists st.
      rewrite process_passes by (rewrite ?He, Hk; first [discriminate|exact I]).
      rewrite (with_expected_id st He), m_command_eq, Hc, m_arguments_eq, Hk.
      unfold m_arguments_default, m_argument. rewrite Hk, Es, Hnd. unfold on_false, after_false. rewrite Hk, Es.
      unfold flat in Hflat. destruct (is_control f && d_accept_children (f_def f)) eqn:E; [|reflexivity].
      apply andb_true_iff in E. destruct E as (E1 & E2). rewrite E1, E2 in Hflat. cbn in Hflat.
      unfold is_action, is_control in *. destruct (d_type (f_def f)); discriminate.
    - exists EExpected. apply (expected_mismatch st t [TSemicolon] He); rewrite Hk; reflexivity.
  Qed.
End Inside.

Section Texts.
  Variable T : tables.
  Hypothesis HT : twf_tables T = true.

  (* a prefix of the grammar, then tokens [mid] the machine takes from wherever it can stand after that prefix, then a
     token it refuses there *)
  Lemma reject_after_steps : forall text pre mid t rest L prev k e,
    wf_prefix T (map strip_pos pre) L prev k ->
    fst (lex text) = pre ++ mid ++ t :: rest ->
    (forall st, stands st L prev k -> exists st', steps T st mid = Some st' /\ stops (process T st' t) e) ->
    parse T text = Reject e (t_pos t) (length (t_val t)).
  Proof.
    intros text pre mid t rest L prev k e Hp Hl Hstop.
    destruct (prefix_ready T HT _ L prev k Hp) as (st & S1 & R).
    destruct (Hstop st R) as (st' & S2 & X).
    rewrite app_assoc in Hl.
    apply (reject_after_prefix T text (pre ++ mid) t rest st' e Hl); [|exact X].
    rewrite map_app, steps_app, S1, steps_strip. exact S2.
  Qed.

  Theorem reject_at_ready : forall text pre t rest L prev k e,
    wf_prefix T (map strip_pos pre) L prev k ->
    fst (lex text) = pre ++ t :: rest ->
    (forall st, stands st L prev k -> stops (process T st t) e) ->
    parse T text = Reject e (t_pos t) (length (t_val t)).
  Proof.
    intros text pre t rest L prev k e Hp Hl Hstop.
    apply (reject_after_steps text pre [] t rest L prev k e Hp Hl). intros st Hst. exists st. auto.
  Qed.

  (* the verdict on a token where the name of a test must come: an unknown name, a command that is no test, or
     anything that is no identifier *)
  Definition test_name_verdict (text : bytes) (L : list bytes) (t : token) : Prop :=
    match t_kind t with
    | TIdentifier =>
        match get_command_instance T L (t_val t) with
        | inr e => parse T text = Reject e (t_pos t) (length (t_val t))
        | inl d' => d_type d' <> CTest -> parse T text = Reject (ENotTest (d_name d')) (t_pos t) (length (t_val t))
        end
    | _ => parse T text = Reject EExpected (t_pos t) (length (t_val t))
    end.

  Lemma test_name_rejected : forall text pre mid t rest L prev k,
    wf_prefix T (map strip_pos pre) L prev k ->
    fst (lex text) = pre ++ mid ++ t :: rest ->
    (forall st, stands st L prev k ->
       exists st' cur rest0, steps T st mid = Some st' /\ p_cstate st' = CArgs /\ p_stack st' = cur :: rest0 /\
                             p_expected st' = Some [TIdentifier] /\ p_loaded st' = L) ->
    not_comment (t_kind t) = true -> test_name_verdict text L t.
  Proof.
    intros text pre mid t rest L prev k Hp Hl Hmid Hnc. unfold test_name_verdict.
    assert (G : forall e, (forall st' cur rest0, p_cstate st' = CArgs -> p_stack st' = cur :: rest0 ->
                             p_expected st' = Some [TIdentifier] -> p_loaded st' = L -> stops (process T st' t) e) ->
                          parse T text = Reject e (t_pos t) (length (t_val t))).
    { intros e H. apply (reject_after_steps text pre mid t rest L prev k e Hp Hl). intros st Hst.
      destruct (Hmid st Hst) as (st' & cur & rest0 & S & C & K & E & Ld). eauto. }
    destruct (t_kind t) eqn:Ek; try discriminate Hnc;
      try (apply G; intros st' cur rest0 C K E Ld; apply (expected_mismatch T st' t [TIdentifier] E); rewrite Ek; reflexivity).
    destruct (get_command_instance T L (t_val t)) as [d'|e] eqn:Eg; [intro Hnt|]; apply G; intros st' cur rest0 C K E Ld.
    - apply (ident_not_test T st' t cur rest0 d' C K); auto; [rewrite E; reflexivity|rewrite Ld; exact Eg].
    - apply (ident_unknown T st' t cur rest0 e C K); auto; [rewrite E; reflexivity|rewrite Ld; exact Eg].
  Qed.

  Lemma parse_after_prefix : forall text pre rest L prev k,
    wf_prefix T (map strip_pos pre) L prev k -> fst (lex text) = pre ++ rest ->
    exists st ll n, stands st L prev k /\
      parse T text = run_tokens (S n) T rest (snd (lex text)) (length text) ll st.
  Proof.
    intros text pre rest L prev k Hp Hl.
    destruct (prefix_ready T HT _ L prev k Hp) as (st & S1 & R).
    assert (Hlen : length pre < 2 * length text + 2)
      by (pose proof (token_count text) as Hc; rewrite Hl, app_length in Hc; lia).
    destruct (steps_then_run T pre p_init st _ rest (snd (lex text)) (length text) 0 S1 Hlen) as (ll & E).
    exists st, ll, (2 * length text + 1 - length pre). split; [exact R|].
    rewrite parse_run_tokens, Hl, E. f_equal. lia.
  Qed.

  (* C18, second clause: a rejection is never reported inside a prefix of the grammar -- it is reported at a token
     that comes after it, at the place of the lexical error (which lies after every token), or at the end *)
  Theorem reject_not_in_prefix : forall text pre rest L prev k e pos tlen,
    wf_prefix T (map strip_pos pre) L prev k ->
    fst (lex text) = pre ++ rest ->
    parse T text = Reject e pos tlen ->
    (e = EUnknownToken /\ snd (lex text) = Some pos) \/
    ((e = EEndExpected \/ e = EEndUnfinished) /\ pos = length text) \/
    (exists t, In t rest /\ t_pos t = pos /\ tlen = length (t_val t)).
  Proof.
    intros text pre rest L prev k e pos tlen Hp Hl Hrej.
    destruct (parse_after_prefix text pre rest L prev k Hp Hl) as (st & ll & fl & _ & E). rewrite E in Hrej.
    destruct (run_tokens_reject _ _ _ _ _ _ _ _ _ _ Hrej) as [(He & Herr)|[(He & Hpos & _)|(n & Hn & R)]].
    - left. auto.
    - right. left. auto.
    - right. right. destruct (run_prefix_reject_token _ _ _ _ _ _ _ _ R) as (t & Hin & Hpos & Hlen' & _).
      exists t. split; [|auto]. eapply In_firstn. exact Hin.
  Qed.

  (* C18, in byte offsets: nothing is reported before the first token after the prefix *)
  Theorem reject_not_before : forall text pre t0 rest L prev k e pos tlen,
    wf_prefix T (map strip_pos pre) L prev k ->
    fst (lex text) = pre ++ t0 :: rest ->
    parse T text = Reject e pos tlen ->
    t_pos t0 <= pos.
  Proof.
    intros text pre t0 rest L prev k e pos tlen Hp Hl Hrej.
    destruct (lex_order text pre t0 rest Hl) as (O1 & O2).
    destruct (reject_not_in_prefix text pre (t0 :: rest) L prev k e pos tlen Hp Hl Hrej)
      as [(_ & Herr)|[(_ & Hpos)|(t & [<-|Hin] & Hpos & _)]].
    - specialize (O2 pos Herr). lia.
    - assert (Hin : In t0 (fst (lex text))) by (rewrite Hl; apply in_or_app; right; left; reflexivity).
      pose proof (lex_token_at text t0 Hin) as (_ & X & _). lia.
    - lia.
    - specialize (O1 t Hin). lia.
  Qed.

  Theorem unknown_command_rejected : forall text pre t rest L prev k e,
    wf_prefix T (map strip_pos pre) L prev k -> fst (lex text) = pre ++ t :: rest ->
    t_kind t = TIdentifier -> get_command_instance T L (t_val t) = inr e ->
    parse T text = Reject e (t_pos t) (length (t_val t)).
  Proof.
    intros text pre t rest L prev k e Hp Hl Hk Hg. apply (reject_at_ready text pre t rest L prev k e Hp Hl).
    intros st (R & Ld & _). apply cmd_unknown; [exact R|exact Hk|rewrite Ld; exact Hg].
  Qed.

  Theorem test_as_command_rejected : forall text pre t rest L prev k d,
    wf_prefix T (map strip_pos pre) L prev k -> fst (lex text) = pre ++ t :: rest ->
    t_kind t = TIdentifier -> get_command_instance T L (t_val t) = inl d -> d_type d = CTest ->
    parse T text = Reject (EFirstCommand (d_name d)) (t_pos t) (length (t_val t)).
  Proof.
    intros text pre t rest L prev k d Hp Hl Hk Hg Hty. apply (reject_at_ready text pre t rest L prev k _ Hp Hl).
    intros st (R & Ld & _). apply cmd_is_test; [exact R|exact Hk|rewrite Ld; exact Hg|exact Hty].
  Qed.

  Theorem no_command_start_rejected : forall text pre t rest L prev k,
    wf_prefix T (map strip_pos pre) L prev k -> fst (lex text) = pre ++ t :: rest ->
    starts_nothing (t_kind t) = true ->
    parse T text = Reject EUnexpectedToken (t_pos t) (length (t_val t)).
  Proof.
    intros text pre t rest L prev k Hp Hl Hk. apply (reject_at_ready text pre t rest L prev k _ Hp Hl).
    intros st (R & _). apply cmd_bad_token; assumption.
  Qed.
  (* '}' at the top level *)
  Theorem stray_rcb_rejected : forall text pre t rest L prev,
    wf_prefix T (map strip_pos pre) L prev 0 -> fst (lex text) = pre ++ t :: rest ->
    t_kind t = TRightCBracket ->
    parse T text = Reject EBracketNone (t_pos t) (length (t_val t)).
  Proof.
    intros text pre t rest L prev Hp Hl Hk. apply (reject_at_ready text pre t rest L prev 0 _ Hp Hl).
    intros st (Hr & _ & _ & B & _). left. rewrite (process_between T st t Hr) by (rewrite Hk; reflexivity).
    unfold m_command_none, pop_bracket. rewrite Hk. destruct (p_brackets st); [reflexivity|discriminate].
  Qed.

  Lemma after_name : forall st L t d,
    ready st -> p_loaded st = L -> t_kind t = TIdentifier -> get_command_instance T L (t_val t) = inl d ->
    d_type d <> CTest ->
    exists st1, process T st t = MTrue st1 /\
                p_cstate st1 = CArgs /\ p_stack st1 = new_frame d (at_in (p_stack st)) :: p_stack st /\
                p_loaded st1 = L /\
                p_expected st1 = (if match d_type d with CControl => d_accept_children d && has_arguments d | _ => false end
                                  then Some [TIdentifier] else None).
  Proof.
    intros st L t d Hr Hl Hk Hg Hty. pose proof Hr as (_ & He & _).
    rewrite (push_cmd T st t d Hr Hk); [|rewrite Hl; exact Hg|exact Hty].
    eexists. split; [reflexivity|]. pcbn.
    destruct (match d_type d with CControl => d_accept_children d && has_arguments d | _ => false end); pcbn; auto.
  Qed.

  (* the token after `if` / `elsif` (a control that needs a test): anything that is not the name of a test *)
  Theorem test_position_rejected : forall text pre tn t rest L prev k d,
    wf_prefix T (map strip_pos pre) L prev k -> fst (lex text) = pre ++ tn :: t :: rest ->
    t_kind tn = TIdentifier -> get_command_instance T L (t_val tn) = inl d ->
    d_type d = CControl -> d_accept_children d = true -> has_arguments d = true ->
    not_comment (t_kind t) = true ->
    match t_kind t with
    | TIdentifier =>
        match get_command_instance T L (t_val t) with
        | inr e => parse T text = Reject e (t_pos t) (length (t_val t))
        | inl d' => d_type d' <> CTest -> parse T text = Reject (ENotTest (d_name d')) (t_pos t) (length (t_val t))
        end
    | _ => parse T text = Reject EExpected (t_pos t) (length (t_val t))
    end.
  Proof.
    intros text pre tn t rest L prev k d Hp Hl Hkn Hg Hty Hch Hha Hnc.
    apply (test_name_rejected text pre [tn] t rest L prev k Hp Hl); [|exact Hnc].
    intros st (R1 & L1 & _).
    destruct (after_name st L tn d R1 L1 Hkn Hg ltac:(congruence)) as (st1 & P1 & C1 & K1 & Ld1 & E1).
    rewrite Hty, Hch, Hha in E1. exists st1, (new_frame d (at_in (p_stack st))), (p_stack st).
    cbn [steps]. rewrite P1. auto 8.
  Qed.

  Definition flat_def (d : cmddef) : bool :=
    match d_type d with CAction => true | CControl => negb (d_accept_children d) | CTest => false end.

  Lemma after_flat_name : forall st L t d,
    ready st -> p_loaded st = L -> t_kind t = TIdentifier -> get_command_instance T L (t_val t) = inl d ->
    flat_def d = true ->
    exists st1, process T st t = MTrue st1 /\ p_loaded st1 = L /\
                at_args st1 (new_frame d (at_in (p_stack st))) (p_stack st) /\ p_expected st1 = None.
  Proof.
    intros st L t d Hr Hl Hk Hg Hf.
    assert (Hty : d_type d <> CTest) by (unfold flat_def in Hf; destruct (d_type d); congruence).
    destruct (after_name st L t d Hr Hl Hk Hg Hty) as (st1 & P1 & C1 & K1 & Ld1 & E1).
    assert (E1' : p_expected st1 = None).
    { rewrite E1. unfold flat_def in Hf. destruct (d_type d); try reflexivity. destruct (d_accept_children d); [discriminate|reflexivity]. }
    exists st1. split; [exact P1|]. split; [exact Ld1|]. split; [|exact E1'].
    constructor; auto.
    - unfold flat, is_action, is_control. cbn [f_def new_frame]. unfold flat_def in Hf. destruct (d_type d); auto; discriminate.
    - apply fi_new_frame. eapply gci_twf; eauto.
  Qed.

  Lemma split_strip : forall (toks : list token) (a b : list token),
    map strip_pos toks = a ++ b -> exists ta tb, toks = ta ++ tb /\ map strip_pos ta = a /\ map strip_pos tb = b.
  Proof.
    intros toks a b H. apply map_eq_app. exact H.
  Qed.

  (* an argument list that the specification of the command refuses (wrong type, wrong order, unknown tag, surplus
     argument, bad value of a tag's parameter): the parse is rejected at a token of one of the arguments *)
  Theorem illegal_arguments_rejected : forall text pre tn atoks rest L prev k d args e,
    wf_prefix T (map strip_pos pre) L prev k ->
    fst (lex text) = pre ++ tn :: atoks ++ rest ->
    t_kind tn = TIdentifier -> get_command_instance T L (t_val tn) = inl d -> flat_def d = true ->
    wf_def d = true -> fixed_arity d = true -> Forall arg_ok args ->
    map strip_pos atoks = flat_map arg_toks args ->
    legal d L args = LReject e ->
    exists t e', In t atoks /\ parse T text = Reject e' (t_pos t) (length (t_val t)).
  Proof.
    intros text pre tn atoks rest L prev k d args e Hp Hl Hkn Hg Hf Hwf Hfa Hall Hat Hleg.
    destruct (prefix_ready T HT _ L prev k Hp) as (st & S1 & R1 & L1 & _).
    destruct (after_flat_name st L tn d R1 L1 Hkn Hg Hf) as (st1 & P1 & Ld1 & A1 & E1).
    pose proof (legal_reject_feed d (at_in (p_stack st)) L args Hwf Hfa Hall e Hleg) as C. rewrite <- Ld1 in C.
    destruct (args_stop T args st1 _ _ e A1 Hall C) as (apre & at_ & amore & st' & e' & Ea & Sa & Xa).
    (* split the real tokens like the position-free ones *)
    rewrite <- Hat in Ea. destruct (split_strip atoks apre (at_ :: amore) Ea) as (p1 & tb & Eat & Ep1 & Etb).
    destruct tb as [|t1 m1]; [discriminate|]. injection Etb as Et1 _.
    exists t1, e'. split; [rewrite Eat; apply in_or_app; right; left; reflexivity|].
    apply (reject_after_prefix T text (pre ++ tn :: p1) t1 (m1 ++ rest) st' e').
    - rewrite Hl, Eat. repeat (rewrite <- app_assoc; cbn [app]). reflexivity.
    - rewrite map_app, steps_app, S1. cbn [map steps]. rewrite process_strip, P1, Ep1. exact Sa.
    - rewrite <- Et1, process_strip in Xa. exact Xa.
  Qed.

  (* a block after a command that takes none, an identifier where ';' is missing: right after the name *)
  Theorem after_flat_name_rejected : forall text pre tn t rest L prev k d,
    wf_prefix T (map strip_pos pre) L prev k -> fst (lex text) = pre ++ tn :: t :: rest ->
    t_kind tn = TIdentifier -> get_command_instance T L (t_val tn) = inl d -> flat_def d = true ->
    (t_kind t = TLeftCBracket /\ d_non_deterministic_args d = false) \/
    (t_kind t = TIdentifier /\ match get_command_instance T L (t_val t) with inl d' => d_type d' <> CTest | inr _ => True end) ->
    exists e, parse T text = Reject e (t_pos t) (length (t_val t)).
  Proof.
    intros text pre tn t rest L prev k d Hp Hl Hkn Hg Hf Hcase.
    destruct (prefix_ready T HT _ L prev k Hp) as (st & S1 & R1 & L1 & _).
    destruct (after_flat_name st L tn d R1 L1 Hkn Hg Hf) as (st1 & P1 & Ld1 & A1 & E1).
    assert (S2 : steps T p_init (map strip_pos (pre ++ [tn])) = Some st1)
      by (rewrite map_app, steps_app, S1; cbn [map steps]; rewrite process_strip, P1; reflexivity).
    assert (Hl' : fst (lex text) = (pre ++ [tn]) ++ t :: rest) by (rewrite <- app_assoc; exact Hl).
    destruct Hcase as [(Hk & Hnd)|(Hk & Hgt)].
    - destruct (block_after_flat T st1 _ _ t A1 Hk Hnd) as (e & X).
      exists e. apply (reject_after_prefix T text (pre ++ [tn]) t rest st1 e Hl' S2 X).
    - destruct A1 as [Es Hc _ _ _].
      destruct (get_command_instance T L (t_val t)) as [d'|e] eqn:Eg; eexists;
        apply (reject_after_prefix T text (pre ++ [tn]) t rest st1 _ Hl' S2).
      + apply (ident_not_test T st1 t _ _ d' Hc Es); [rewrite E1; exact I|exact Hk|rewrite Ld1; exact Eg|exact Hgt].
      + apply (ident_unknown T st1 t _ _ e Hc Es); [rewrite E1; exact I|exact Hk|rewrite Ld1; exact Eg].
  Qed.

  Lemma close_misplaced : forall stD C S0 b L body ns L' t,
    ready stD -> p_stack stD = C :: S0 -> p_loaded stD = L -> prev_name (place_of stD) = None ->
    p_brackets stD = BRCBracket :: b ->
    wf_cmds T L None body ns L' ->
    follows_name (f_def C) (prev_name (S0, p_hash stD, p_result stD)) = false ->
    t_kind t = TRightCBracket ->
    exists stE, steps T stD (flat_map toks_cmd body) = Some stE /\ stops (process T stE t) EMustFollow.
  Proof.
    intros stD C S0 b L body ns L' t Hr Es Hl Hp Hb Hw Hfol Hk.
    destruct (run_cmds T HT L None body ns L' Hw stD Hr Hl Hp) as (stE & PE & CE & EE & LE & BE & PLE).
    exists stE. split; [exact PE|]. left.
    unfold place_of in PLE. rewrite Es, fold_emit_nested in PLE. inversion PLE as [[SE HE RE]].
    destruct (add_children_facts ns C) as (F1 & _).
    rewrite (process_rcb T stE b t CE EE ltac:(congruence) Hk).
    rewrite (up_eq (with_brackets b stE) (add_children C ns) S0 SE). pcbn. rewrite F1, HE, RE, Hfol. reflexivity.
  Qed.

  (* `elsif <test> { body }` / `else { body }` where the previous command of the block is not one they may follow:
     rejected at the closing brace *)
  Theorem misplaced_follower_rejected : forall text pre tn otoks btoks t rest L prev k d body ns L',
    wf_prefix T (map strip_pos pre) L prev k ->
    fst (lex text) = pre ++ tn :: otoks ++ btoks ++ t :: rest ->
    t_kind tn = TIdentifier -> get_command_instance T L (t_val tn) = inl d ->
    d_type d = CControl -> d_accept_children d = true ->
    follows_name d prev = false ->
    ((exists a tst nt, d_args d = [a] /\ is_t1 a = true /\ wf_test T L tst nt /\ map strip_pos otoks = toks_test tst ++ [tk_lcb]) \/
     (d_args d = [] /\ map strip_pos otoks = [tk_lcb])) ->
    wf_cmds T L None body ns L' -> map strip_pos btoks = flat_map toks_cmd body ->
    t_kind t = TRightCBracket ->
    parse T text = Reject EMustFollow (t_pos t) (length (t_val t)).
  Proof.
    intros text pre tn otoks btoks t rest L prev k d body ns L' Hp Hl Hkn Hg Hty Hch Hfol Hopen Hw Hbt Hk.
    apply (reject_after_steps text pre (tn :: otoks ++ btoks) t rest L prev k EMustFollow Hp).
    { rewrite Hl. cbn [app]. rewrite <- app_assoc. reflexivity. }
    intros st (R1 & L1 & P1 & _).
    assert (Hopened : exists stD C, steps T st (tn :: otoks) = Some stD /\ ready stD /\ p_loaded stD = L /\
                        prev_name (place_of stD) = None /\ p_brackets stD = BRCBracket :: p_brackets st /\
                        p_stack stD = C :: p_stack st /\ f_def C = d /\ p_result stD = p_result st).
    { rewrite <- steps_strip. cbn [map]. rewrite (strip_kind tn _ Hkn).
      destruct Hopen as [(a & tst & nt & Ha & Ht1 & Hwt & Eo)|(Ha & Eo)]; rewrite Eo.
      - destruct (open_ctl T HT L (t_val tn) d a tst nt st Hg Hty Hch Ha Ht1 Hwt R1 L1) as (stD & S2 & R2 & L2 & P2 & B2 & C & X).
        exists stD, C. auto 10.
      - destruct (open_else T HT L (t_val tn) d st Hg Hty Hch Ha R1 L1) as (stD & S2 & R2 & L2 & P2 & B2 & C & X).
        exists stD, C. auto 10. }
    destruct Hopened as (stD & C & S2 & R2 & L2 & P2 & B2 & X1 & X2 & X3).
    assert (Hfol' : follows_name (f_def C) (prev_name (p_stack st, p_hash stD, p_result stD)) = false).
    { rewrite X2, X3. unfold prev_name in *. unfold place_of in P1. rewrite <- Hfol, <- P1.
      destruct (p_stack st); reflexivity. }
    destruct (close_misplaced stD C (p_stack st) (p_brackets st) L body ns L' t R2 X1 L2 P2 B2 Hw Hfol' Hk) as (stE & S3 & X).
    exists stE. split; [|exact X]. rewrite app_comm_cons, steps_app, S2, <- steps_strip, Hbt. exact S3.
  Qed.

  (* `name args0 [ items...` then a token that cannot continue the list: an empty list, a missing comma, a comma
     before the closing bracket, a list that is not closed *)
  Theorem malformed_string_list_rejected : forall text pre tn a0toks lb ltoks t rest L prev k d args0 am em items tc,
    wf_prefix T (map strip_pos pre) L prev k ->
    fst (lex text) = pre ++ tn :: a0toks ++ lb :: ltoks ++ t :: rest ->
    t_kind tn = TIdentifier -> get_command_instance T L (t_val tn) = inl d -> flat_def d = true ->
    wf_def d = true -> fixed_arity d = true -> Forall arg_ok args0 ->
    map strip_pos a0toks = flat_map arg_toks args0 -> legal d L args0 = LIncomplete am em ->
    strip_pos lb = mk TLeftBracket [91%N] -> map strip_pos ltoks = open_items items tc ->
    Forall (fun s => utf8_valid s = true) items -> (items = [] -> tc = false) ->
    not_comment (t_kind t) = true ->
    (if match items with [] => true | _ => tc end
     then kind_mem (t_kind t) [TString] = false
     else kind_mem (t_kind t) [TComma; TRightBracket] = false) ->
    parse T text = Reject EExpected (t_pos t) (length (t_val t)).
  Proof.
    intros text pre tn a0toks lb ltoks t rest L prev k d args0 am em items tc
           Hp Hl Hkn Hg Hf Hwf Hfa Hall Hat Hleg Hlb Hlt Hu Htc Hnc Hbad.
    apply (reject_after_steps text pre (tn :: a0toks ++ lb :: ltoks) t rest L prev k EExpected Hp).
    { rewrite Hl. cbn [app]. rewrite <- app_assoc. reflexivity. }
    intros st (R1 & L1 & _).
    destruct (after_flat_name st L tn d R1 L1 Hkn Hg Hf) as (st1 & P1 & Ld1 & A1 & E1).
    destruct (legal_incomplete_feed d (at_in (p_stack st)) L args0 Hwf Hfa Hall am em Hleg) as (fN & Hfeed & Hinc & _).
    rewrite <- Ld1 in Hfeed.
    destruct (args_run T args0 st1 _ _ fN A1 Hall Hfeed) as (st2 & S2 & A2 & L2 & B2).
    assert (E2 : p_expected st2 = None).
    { destruct A2 as [_ _ [X|(_ & X)] _ _]; [exact X|congruence]. }
    destruct (malformed_list_stop T st2 fN _ items tc t (aa_stack _ _ _ A2) (aa_cstate _ _ _ A2) E2
                (cc_false_no_block fN _ (aa_flat _ _ _ A2)) Hu Htc Hnc Hbad) as (st3 & S3 & X).
    exists st3. split; [|exact X].
    cbn [steps]. rewrite P1, steps_app, <- steps_strip, Hat, S2, <- steps_strip. cbn [map]. rewrite Hlb, Hlt. exact S3.
  Qed.

  (* a missing block: after `if <test>` (a test that ends without a parenthesis) anything but '{' *)
  Theorem missing_block_rejected : forall text pre tn ttoks t rest L prev k d a tst nt,
    wf_prefix T (map strip_pos pre) L prev k ->
    fst (lex text) = pre ++ tn :: ttoks ++ t :: rest ->
    t_kind tn = TIdentifier -> get_command_instance T L (t_val tn) = inl d ->
    d_type d = CControl -> d_accept_children d = true -> d_args d = [a] -> is_t1 a = true ->
    wf_test T L tst nt -> kind_of tst = Kcc -> map strip_pos ttoks = toks_test tst ->
    not_comment (t_kind t) = true -> kind_mem (t_kind t) [TLeftCBracket] = false ->
    parse T text = Reject EExpected (t_pos t) (length (t_val t)).
  Proof.
    intros text pre tn ttoks t rest L prev k d a tst nt Hp Hl Hkn Hg Hty Hch Ha Ht1 Hwt Hkc Htt Hnc Hbad.
    apply (reject_after_steps text pre (tn :: ttoks) t rest L prev k EExpected Hp Hl).
    intros st (R1 & L1 & _).
    destruct (ctl_test_done T HT L (t_val tn) d a tst nt st Hg Hty Hch Ha Ht1 Hwt Hkc R1 L1) as (stB & S2 & EB).
    exists stB. split; [rewrite <- steps_strip; cbn [map]; rewrite (strip_kind tn _ Hkn), Htt; exact S2|].
    apply (expected_mismatch T stB t [TLeftCBracket] EB Hbad Hnc).
  Qed.

  (* bytes that are no token: after a prefix of the grammar, the parse is rejected at the place where no lexer
     rule matches *)
  Theorem lexical_error_rejected : forall text L prev k p,
    wf_prefix T (map strip_pos (fst (lex text))) L prev k -> snd (lex text) = Some p ->
    exists ll, parse T text = Reject EUnknownToken p ll.
  Proof.
    intros text L prev k p Hp Herr.
    destruct (parse_after_prefix text (fst (lex text)) [] L prev k Hp (eq_sym (app_nil_r _))) as (st & ll & n & _ & ->).
    rewrite Herr. exists ll. reflexivity.
  Qed.

  (* blocks still open at the end of the text *)
  Theorem unclosed_block_rejected : forall text L prev k,
    wf_prefix T (map strip_pos (fst (lex text))) L prev (S k) -> snd (lex text) = None ->
    exists ll, parse T text = Reject EEndExpected (length text) ll.
  Proof.
    intros text L prev k Hp Herr.
    destruct (parse_after_prefix text (fst (lex text)) [] L prev (S k) Hp (eq_sym (app_nil_r _)))
      as (st & ll & n & (_ & _ & _ & B1 & _) & ->).
    rewrite Herr, run_tokens_S_nil. exists ll. unfold finish. destruct (p_brackets st); [discriminate B1|reflexivity].
  Qed.

  (* a command that is not finished at the end of the text: `name args` without ';'.  fN is a function of the attach
     mode because the frame is created at the top level or inside a block, and feed carries the mode along *)
  Theorem unfinished_command_rejected : forall text pre tn a0toks L prev k d args0 fN,
    wf_prefix T (map strip_pos pre) L prev k ->
    fst (lex text) = pre ++ tn :: a0toks -> snd (lex text) = None ->
    t_kind tn = TIdentifier -> get_command_instance T L (t_val tn) = inl d -> flat_def d = true ->
    Forall arg_ok args0 -> map strip_pos a0toks = flat_map arg_toks args0 ->
    (forall at_, feed (new_frame d at_) args0 L = FOk (fN at_)) ->
    exists e ll, (e = EEndExpected \/ e = EEndUnfinished) /\ parse T text = Reject e (length text) ll.
  Proof.
    intros text pre tn a0toks L prev k d args0 fN Hp Hl Herr Hkn Hg Hf Hall Hat Hfeed.
    destruct (prefix_ready T HT _ L prev k Hp) as (st & S1 & R1 & L1 & _).
    destruct (after_flat_name st L tn d R1 L1 Hkn Hg Hf) as (st1 & P1 & Ld1 & A1 & E1).
    specialize (Hfeed (at_in (p_stack st))). rewrite <- Ld1 in Hfeed.
    destruct (args_run T args0 st1 _ _ _ A1 Hall Hfeed) as (st2 & S2 & A2 & L2 & B2).
    assert (S3 : steps T p_init (map strip_pos (fst (lex text))) = Some st2).
    { rewrite Hl, map_app, steps_app, S1. cbn [map steps]. rewrite process_strip, P1, Hat. exact S2. }
    destruct (parse_of_steps T text st2 S3 Herr) as (ll & ->).
    destruct A2 as [Es _ _ _ _].
    unfold finish. rewrite Es.
    destruct (match p_brackets st2 with b :: _ => Some [closing_kind b] | [] => p_expected st2 end).
    - exists EEndExpected, ll. auto.
    - exists EEndUnfinished, ll. auto.
  Qed.

  Lemma after_ctl_test_name : forall st L tn tl d a dl,
    ready st -> p_loaded st = L ->
    t_kind tn = TIdentifier -> get_command_instance T L (t_val tn) = inl d ->
    d_type d = CControl -> d_accept_children d = true -> d_args d = [a] -> is_t1 a = true ->
    t_kind tl = TIdentifier -> get_command_instance T L (t_val tl) = inl dl -> d_type dl = CTest ->
    iscomplete (new_frame dl (at_of a)) None = false ->
    exists stL N1, steps T st [tn; tl] = Some stL /\
      p_stack stL = new_frame dl (at_of a) :: N1 :: p_stack st /\ p_cstate stL = CArgs /\
      p_expected stL = d_expected_first dl /\ p_loaded stL = L.
  Proof.
    intros st L tn tl d a dl R1 L1 Hkn Hg Hty Hch Ha Ht1 Hkl Hgl Htyl Hinc.
    assert (Htw : twf d = true) by (eapply gci_twf; eauto).
    destruct (after_name st L tn d R1 L1 Hkn Hg ltac:(congruence)) as (st1 & P1 & C1 & K1 & Ld1 & E1).
    assert (Hha : has_arguments d = true) by (unfold has_arguments; rewrite Ha; reflexivity).
    rewrite Hty, Hch, Hha in E1. cbn in E1.
    destruct (cna_t1_new L d (at_in (p_stack st)) a Htw Ha Ht1) as (N1 & EC & _).
    pose proof (push_test T L st1 _ _ N1 a tl dl K1 C1 ltac:(rewrite E1; reflexivity) Ld1 EC Hkl Hgl Htyl) as P2.
    set (stL := with_stack (new_frame dl (at_of a) :: N1 :: p_stack st) (with_expected (d_expected_first dl) st1)) in *.
    rewrite (cc_incomplete stL (new_frame dl (at_of a)) (N1 :: p_stack st) false eq_refl Hinc) in P2.
    exists stL, N1. cbn [steps]. rewrite P1, P2. unfold stL. pcbn. auto.
  Qed.

  Lemma test_args_position : forall st L tn tl a0toks d a dl args0 fN,
    ready st -> p_loaded st = L ->
    t_kind tn = TIdentifier -> get_command_instance T L (t_val tn) = inl d ->
    d_type d = CControl -> d_accept_children d = true -> d_args d = [a] -> is_t1 a = true ->
    t_kind tl = TIdentifier -> get_command_instance T L (t_val tl) = inl dl -> d_type dl = CTest ->
    d_expected_first dl = None -> iscomplete (new_frame dl (at_of a)) None = false ->
    Forall arg_ok args0 -> map strip_pos a0toks = flat_map arg_toks args0 ->
    feed (new_frame dl (at_of a)) args0 L = FOk fN -> iscomplete fN None = false ->
    exists st2 rest0, steps T st (tn :: tl :: a0toks) = Some st2 /\ cur_is st2 fN rest0 /\ p_loaded st2 = L.
  Proof.
    intros st L tn tl a0toks d a dl args0 fN R1 L1 Hkn Hg Hty Hch Ha Ht1 Hkl Hgl Htyl Hef Hinc0 Hall Hat Hfeed Hinc.
    destruct (after_ctl_test_name st L tn tl d a dl R1 L1 Hkn Hg Hty Hch Ha Ht1 Hkl Hgl Htyl Hinc0)
      as (stL & N1 & S & K & C & E & Ld).
    assert (Hci : cur_is stL (new_frame dl (at_of a)) (N1 :: p_stack st)).
    { constructor; [exact K|exact C|rewrite E; exact Hef|apply fi_new_frame; eapply gci_twf; eauto]. }
    rewrite <- Ld in Hfeed.
    destruct (args_run_incomplete T args0 stL _ _ fN Hci Hall Hfeed Hinc) as (st2 & S2 & Hci2 & Ld2).
    exists st2, (N1 :: p_stack st). change (tn :: tl :: a0toks) with ([tn; tl] ++ a0toks).
    rewrite steps_app, S, <- steps_strip, Hat. split; [exact S2|]. split; [exact Hci2|congruence].
  Qed.

  Lemma inner_test_position : forall st L tn tl d a dl more,
    ready st -> p_loaded st = L ->
    get_command_instance T L (t_val tn) = inl d -> t_kind tn = TIdentifier ->
    d_type d = CControl -> d_accept_children d = true -> d_args d = [a] -> is_t1 a = true ->
    t_kind tl = TIdentifier -> get_command_instance T L (t_val tl) = inl dl -> d_type dl = CTest ->
    iscomplete (new_frame dl (at_of a)) None = false ->
    ((d_expected_first dl = Some [TLeftParen] /\ exists lp, more = [lp] /\ t_kind lp = TLeftParen) \/
     (d_expected_first dl = Some [TIdentifier] /\ more = [])) ->
    exists stP cur rest,
      steps T st (map strip_pos (tn :: tl :: more)) = Some stP /\
      p_cstate stP = CArgs /\ p_stack stP = cur :: rest /\ p_expected stP = Some [TIdentifier] /\ p_loaded stP = L.
  Proof.
    intros st L tn tl d a dl more R1 L1 Hg Hkn Hty Hch Ha Ht1 Hkl Hgl Htyl Hinc Hcase.
    destruct (after_ctl_test_name st L tn tl d a dl R1 L1 Hkn Hg Hty Hch Ha Ht1 Hkl Hgl Htyl Hinc)
      as (stL & N1 & S & K & C & E & Ld).
    rewrite steps_strip. destruct Hcase as [(Hef & lp & -> & Hklp)|(Hef & ->)].
    - eexists. exists (new_frame dl (at_of a)), (N1 :: p_stack st).
      change [tn; tl; lp] with ([tn; tl] ++ [lp]). rewrite steps_app, S. cbn [steps].
      rewrite (lparen_step T stL lp C ltac:(rewrite E; exact Hef) Hklp). split; [reflexivity|]. pcbn. auto.
    - exists stL, (new_frame dl (at_of a)), (N1 :: p_stack st). rewrite Hef in E. auto 8.
  Qed.

  (* an unknown name, the name of an action, or no name at all where a test list or `not` needs its (first) test *)
  Theorem inner_test_rejected : forall text pre tn tl more t rest L prev k d a dl,
    wf_prefix T (map strip_pos pre) L prev k ->
    fst (lex text) = pre ++ tn :: tl :: more ++ t :: rest ->
    t_kind tn = TIdentifier -> get_command_instance T L (t_val tn) = inl d ->
    d_type d = CControl -> d_accept_children d = true -> d_args d = [a] -> is_t1 a = true ->
    t_kind tl = TIdentifier -> get_command_instance T L (t_val tl) = inl dl -> d_type dl = CTest ->
    iscomplete (new_frame dl (at_of a)) None = false ->
    ((d_expected_first dl = Some [TLeftParen] /\ exists lp, more = [lp] /\ t_kind lp = TLeftParen) \/
     (d_expected_first dl = Some [TIdentifier] /\ more = [])) ->
    not_comment (t_kind t) = true ->
    match t_kind t with
    | TIdentifier =>
        match get_command_instance T L (t_val t) with
        | inr e => parse T text = Reject e (t_pos t) (length (t_val t))
        | inl d' => d_type d' <> CTest -> parse T text = Reject (ENotTest (d_name d')) (t_pos t) (length (t_val t))
        end
    | _ => parse T text = Reject EExpected (t_pos t) (length (t_val t))
    end.
  Proof.
    intros text pre tn tl more t rest L prev k d a dl Hp Hl Hkn Hg Hty Hch Ha Ht1 Hkl Hgl Htyl Hinc Hcase Hnc.
    apply (test_name_rejected text pre (tn :: tl :: more) t rest L prev k Hp Hl); [|exact Hnc].
    intros st (R1 & L1 & _).
    destruct (inner_test_position st L tn tl d a dl more R1 L1 Hg Hkn Hty Hch Ha Ht1 Hkl Hgl Htyl Hinc Hcase)
      as (stP & cur & rest0 & S2 & CP & KP & EP & LP).
    rewrite steps_strip in S2. exists stP, cur, rest0. auto 8.
  Qed.

  (* an empty test list: after `if anyof (` the name of a test must come *)
  Theorem empty_test_list_rejected : forall text pre tn tl lp t rest L prev k d a dl,
    wf_prefix T (map strip_pos pre) L prev k ->
    fst (lex text) = pre ++ tn :: tl :: lp :: t :: rest ->
    t_kind tn = TIdentifier -> get_command_instance T L (t_val tn) = inl d ->
    d_type d = CControl -> d_accept_children d = true -> d_args d = [a] -> is_t1 a = true ->
    t_kind tl = TIdentifier -> get_command_instance T L (t_val tl) = inl dl -> d_type dl = CTest ->
    d_expected_first dl = Some [TLeftParen] -> iscomplete (new_frame dl (at_of a)) None = false ->
    t_kind lp = TLeftParen ->
    not_comment (t_kind t) = true -> kind_mem (t_kind t) [TIdentifier] = false ->
    parse T text = Reject EExpected (t_pos t) (length (t_val t)).
  Proof.
    intros text pre tn tl lp t rest L prev k d a dl Hp Hl Hkn Hg Hty Hch Ha Ht1 Hkl Hgl Htyl Hef Hinc Hklp Hnc Hbad.
    pose proof (inner_test_rejected text pre tn tl [lp] t rest L prev k d a dl Hp Hl Hkn Hg Hty Hch Ha Ht1 Hkl Hgl Htyl Hinc
                  (or_introl (conj Hef (ex_intro _ lp (conj eq_refl Hklp)))) Hnc) as R.
    destruct (t_kind t); try exact R. discriminate Hbad.
  Qed.

  (* later positions of a test list: after `<control> <list-test> ( t1, .., tk` a comma or ')' must come, and after
     the comma the name of a test *)
  Theorem test_list_later_rejected : forall text pre tn tl lp ttoks cm t rest L prev k d a dl al ts ns,
    wf_prefix T (map strip_pos pre) L prev k ->
    fst (lex text) = pre ++ tn :: tl :: lp :: ttoks ++ cm ++ t :: rest ->
    t_kind tn = TIdentifier -> get_command_instance T L (t_val tn) = inl d ->
    d_type d = CControl -> d_accept_children d = true -> d_args d = [a] -> is_t1 a = true ->
    t_kind tl = TIdentifier -> get_command_instance T L (t_val tl) = inl dl -> d_type dl = CTest ->
    d_args dl = [al] -> is_tl al = true -> d_expected_first dl = Some [TLeftParen] ->
    t_kind lp = TLeftParen ->
    ts <> [] -> Forall2 (wf_test T L) ts ns -> map strip_pos ttoks = toks_tests ts ->
    (cm = [] \/ exists c, cm = [c] /\ strip_pos c = mk TComma [44%N]) ->
    not_comment (t_kind t) = true ->
    match cm with
    | [] => kind_mem (t_kind t) [TComma; TRightParen] = false ->
            parse T text = Reject EExpected (t_pos t) (length (t_val t))
    | _ =>
        match t_kind t with
        | TIdentifier =>
            match get_command_instance T L (t_val t) with
            | inr e => parse T text = Reject e (t_pos t) (length (t_val t))
            | inl d' => d_type d' <> CTest -> parse T text = Reject (ENotTest (d_name d')) (t_pos t) (length (t_val t))
            end
        | _ => parse T text = Reject EExpected (t_pos t) (length (t_val t))
        end
    end.
  Proof.
    intros text pre tn tl lp ttoks cm t rest L prev k d a dl al ts ns
           Hp Hl Hkn Hg Hty Hch Ha Ht1 Hkl Hgl Htyl Hal Htl Hef Hklp Hne HF Htt Hcm Hnc.
    assert (HFp : Forall2 (Pst T L) ts ns).
    { clear -HF HT. induction HF; constructor; [apply (run_test T L HT); assumption|assumption]. }
    (* the state after `<control> <list test> ( t1, .., tk` *)
    assert (Hmid : forall st, stands st L prev k ->
              exists stE Nf N1, steps T st (tn :: tl :: lp :: ttoks) = Some stE /\ p_stack stE = Nf :: N1 :: p_stack st /\
                                p_cstate stE = CArgs /\ p_expected stE = Some [TComma; TRightParen] /\ p_loaded stE = L).
    { intros st (R1 & L1 & _).
      destruct (after_name st L tn d R1 L1 Hkn Hg ltac:(congruence)) as (st1 & P1 & C1 & K1 & Ld1 & E1).
      rewrite Hty, Hch in E1. unfold has_arguments in E1. rewrite Ha in E1. cbn in E1.
      destruct (cna_t1_new L d (at_in (p_stack st)) a ltac:(eapply gci_twf; eauto) Ha Ht1) as (N1 & EC & _).
      destruct (list_test_members T L HT (t_val tl) (t_val lp) dl al ts ns st1 _ _ N1 a K1 C1 ltac:(rewrite E1; reflexivity)
                  Ld1 EC Hgl Htyl Hal Htl Hne HFp) as (Nf & stE & PE & _ & SE & CE & EE & _ & LE & _).
      exists stE, Nf, N1. change (tn :: tl :: lp :: ttoks) with ([tn] ++ tl :: lp :: ttoks).
      rewrite steps_app, (steps_one T st tn st1 P1), <- steps_strip. cbn [map].
      rewrite (strip_kind tl _ Hkl), (strip_kind lp _ Hklp), Htt. auto 8. }
    destruct Hcm as [-> |(c & -> & Hc)].
    - intro Hbad. apply (reject_after_steps text pre (tn :: tl :: lp :: ttoks) t rest L prev k EExpected Hp Hl).
      intros st Hst. destruct (Hmid st Hst) as (stE & Nf & N1 & S & K & C & E & Ld).
      exists stE. split; [exact S|]. apply (expected_mismatch T stE t _ E Hbad Hnc).
    - apply (test_name_rejected text pre (tn :: tl :: lp :: ttoks ++ [c]) t rest L prev k Hp); [| |exact Hnc].
      { rewrite Hl. cbn [app]. rewrite <- app_assoc. reflexivity. }
      intros st Hst. destruct (Hmid st Hst) as (stE & Nf & N1 & S & K & C & E & Ld).
      assert (Hkc : t_kind c = TComma) by (apply (f_equal t_kind) in Hc; exact Hc).
      eexists. exists Nf, (N1 :: p_stack st).
      change (tn :: tl :: lp :: ttoks ++ [c]) with ((tn :: tl :: lp :: ttoks) ++ [c]). rewrite steps_app, S. cbn [steps].
      rewrite (process_comma_args T stE c C E Hkc). split; [reflexivity|]. pcbn. auto.
  Qed.

  (* malformed string lists in the arguments of a test that still needs arguments *)
  Theorem malformed_string_list_in_test_rejected : forall text pre tn tl a0toks lb ltoks t rest L prev k d a dl args0 fN items tc,
    wf_prefix T (map strip_pos pre) L prev k ->
    fst (lex text) = pre ++ tn :: tl :: a0toks ++ lb :: ltoks ++ t :: rest ->
    t_kind tn = TIdentifier -> get_command_instance T L (t_val tn) = inl d ->
    d_type d = CControl -> d_accept_children d = true -> d_args d = [a] -> is_t1 a = true ->
    t_kind tl = TIdentifier -> get_command_instance T L (t_val tl) = inl dl -> d_type dl = CTest ->
    d_expected_first dl = None -> iscomplete (new_frame dl (at_of a)) None = false ->
    Forall arg_ok args0 -> map strip_pos a0toks = flat_map arg_toks args0 ->
    feed (new_frame dl (at_of a)) args0 L = FOk fN -> iscomplete fN None = false ->
    strip_pos lb = mk TLeftBracket [91%N] -> map strip_pos ltoks = open_items items tc ->
    Forall (fun s => utf8_valid s = true) items -> (items = [] -> tc = false) ->
    not_comment (t_kind t) = true ->
    (if match items with [] => true | _ => tc end
     then kind_mem (t_kind t) [TString] = false
     else kind_mem (t_kind t) [TComma; TRightBracket] = false) ->
    parse T text = Reject EExpected (t_pos t) (length (t_val t)).
  Proof.
    intros text pre tn tl a0toks lb ltoks t rest L prev k d a dl args0 fN items tc
           Hp Hl Hkn Hg Hty Hch Ha Ht1 Hkl Hgl Htyl Hef Hinc0 Hall Hat Hfeed Hinc Hlb Hlt Hu Htc Hnc Hbad.
    apply (reject_after_steps text pre (tn :: tl :: a0toks ++ lb :: ltoks) t rest L prev k EExpected Hp).
    { rewrite Hl. cbn [app]. rewrite <- app_assoc. reflexivity. }
    intros st (R1 & L1 & _).
    destruct (test_args_position st L tn tl a0toks d a dl args0 fN R1 L1 Hkn Hg Hty Hch Ha Ht1 Hkl Hgl Htyl Hef Hinc0
                Hall Hat Hfeed Hinc) as (st2 & rest0 & S2 & Hci2 & _).
    destruct (malformed_list_stop T st2 fN _ items tc t (ci_stack _ _ _ Hci2) (ci_cstate _ _ _ Hci2) (ci_expected _ _ _ Hci2)
                (fun st' Es' => cc_incomplete st' fN _ false Es' Hinc) Hu Htc Hnc Hbad) as (st3 & S3 & X).
    exists st3. split; [|exact X].
    change (tn :: tl :: a0toks ++ lb :: ltoks) with ((tn :: tl :: a0toks) ++ lb :: ltoks).
    rewrite steps_app, S2, <- steps_strip. cbn [map]. rewrite Hlb, Hlt. exact S3.
  Qed.

  (* the arguments of a test: a string, number or tag that the test does not take at that point (an unknown
     tag, a tag whose extension is not loaded, a value of the wrong type), while the test still needs arguments *)
  Theorem test_argument_rejected : forall text pre tn tl a0toks t rest L prev k d a dl args0 fN ty,
    wf_prefix T (map strip_pos pre) L prev k ->
    fst (lex text) = pre ++ tn :: tl :: a0toks ++ t :: rest ->
    t_kind tn = TIdentifier -> get_command_instance T L (t_val tn) = inl d ->
    d_type d = CControl -> d_accept_children d = true -> d_args d = [a] -> is_t1 a = true ->
    t_kind tl = TIdentifier -> get_command_instance T L (t_val tl) = inl dl -> d_type dl = CTest ->
    d_expected_first dl = None -> iscomplete (new_frame dl (at_of a)) None = false ->
    Forall arg_ok args0 -> map strip_pos a0toks = flat_map arg_toks args0 ->
    feed (new_frame dl (at_of a)) args0 L = FOk fN -> iscomplete fN None = false ->
    (((t_kind t = TString \/ t_kind t = TMultiline) /\ ty = TyString /\ utf8_valid (t_val t) = true) \/
     (t_kind t = TNumber /\ ty = TyNumber) \/ (t_kind t = TTag /\ ty = TyTag)) ->
    match check_next_arg fN ty (VStr (t_val t)) true true L with
    | CnaFalse => parse T text = Reject EUnexpectedToken (t_pos t) (length (t_val t))
    | CnaErr e => parse T text = Reject e (t_pos t) (length (t_val t))
    | _ => True
    end.
  Proof.
    intros text pre tn tl a0toks t rest L prev k d a dl args0 fN ty
           Hp Hl Hkn Hg Hty Hch Ha Ht1 Hkl Hgl Htyl Hef Hinc0 Hall Hat Hfeed Hinc Hk.
    destruct (check_next_arg fN ty (VStr (t_val t)) true true L) eqn:E; try exact I;
      (apply (reject_after_steps text pre (tn :: tl :: a0toks) t rest L prev k _ Hp Hl); intros st (R1 & L1 & _);
       destruct (test_args_position st L tn tl a0toks d a dl args0 fN R1 L1 Hkn Hg Hty Hch Ha Ht1 Hkl Hgl Htyl Hef Hinc0
                   Hall Hat Hfeed Hinc) as (st2 & rest0 & S2 & Hci2 & Ld2);
       exists st2; split; [exact S2|];
       pose proof (scalar_refused T st2 fN rest0 t ty Hci2 Hk) as X; rewrite Ld2, E in X; exact X).
  Qed.
End Texts.

Print Assumptions prefix_ready.
Print Assumptions args_stop.
Print Assumptions illegal_arguments_rejected.
Print Assumptions test_position_rejected.
