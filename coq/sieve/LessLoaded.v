(* LessLoaded.v — the parser with fewer extensions loaded (C07, removal direction).

   Two runs of the machine on the same tokens, the second with a subset of the loaded extensions (what is left
   when an extension is removed from a `require`): every transition gives the same outcome in related states
   -- same stack, same expectations, same brackets -- or the second run stops with "extension 'x' not loaded"
   for an x the first run has loaded ([process_sim]).  Hence a script accepted with the full `require` is, with
   the reduced one, either still accepted or rejected with that message at one of its tokens. *)
From Coq Require Import List NArith Bool Arith Lia.
From SV Require Import lib.Bytes sieve.Lexer sieve.Tables sieve.ArgCheck sieve.Machine
  sieve.GateFacts sieve.PositionFacts sieve.TotalFacts sieve.CompleteFacts sieve.CommentFacts.
Import ListNotations.
Local Close Scope N_scope.

Definition sub (L' L : list bytes) : Prop := forall x, mem x L' = true -> mem x L = true.

(* the failure we are after: an extension the full run has and the reduced run lacks *)
Definition lacks (L L' : list bytes) (x : bytes) : Prop := mem x L' = false /\ mem x L = true.

Lemma ivv_less : forall a v L L', sub L' L ->
  is_valid_value a v true L' = is_valid_value a v true L \/
  (is_valid_value a v true L = VTrue /\ exists x, is_valid_value a v true L' = VRaise (EExtNotLoaded x) /\ lacks L L' x).
Proof.
  intros a v L L' Hs. unfold is_valid_value.
  destruct (a_values a) as [vals|]; destruct (a_extension_values a) as [m|]; auto;
    destruct v as [s|l|n|ns]; auto.
  - destruct (mem (lower s) vals); auto.
    destruct (assoc_get (lower s) m) as [[|c e]|]; auto. cbn [andb].
    destruct (mem (c :: e) L) eqn:E1, (mem (c :: e) L') eqn:E2; cbn [negb]; auto.
    + right. split; [reflexivity|]. exists (c :: e). split; [reflexivity|split; assumption].
    + rewrite (Hs _ E2) in E1. discriminate.
  - destruct (assoc_get (lower s) m) as [[|c e]|]; auto. cbn [andb].
    destruct (mem (c :: e) L) eqn:E1, (mem (c :: e) L') eqn:E2; cbn [negb]; auto.
    + right. split; [reflexivity|]. exists (c :: e). split; [reflexivity|split; assumption].
    + rewrite (Hs _ E2) in E1. discriminate.
Qed.

Definition cna_same_or_lacks (L L' : list bytes) (r r' : cna) : Prop :=
  r' = r \/ exists x, r' = CnaErr (EExtNotLoaded x) /\ lacks L L' x.

Ltac gate_left := left; reflexivity.
Ltac gate_right x Hx := right; exists x; split; [reflexivity|exact Hx].

Lemma cna_scan_less : forall defs f pos t v add L L', sub L' L ->
  cna_same_or_lacks L L' (cna_scan f defs pos t v add true L) (cna_scan f defs pos t v add true L').
Proof.
  induction defs as [|ca rest IH]; intros f pos t v add L L' Hs; cbn [cna_scan]; [gate_left|].
  destruct (a_required ca).
  - destruct (a_type ca) as [|[] [|y l]];
      try (destruct (negb (atype_eqb t TyTest)); gate_left);
      try (destruct (negb (is_valid_type t _)); [gate_left|];
           destruct (ivv_less ca v L L' Hs) as [E|(E & x & E' & Hx)];
           [rewrite E; gate_left|rewrite E, E'; gate_right x Hx]).
  - destruct (atype_mem t (a_type ca)); [|apply IH; exact Hs].
    destruct (ivv_less ca v L L' Hs) as [E|(E & x & E' & Hx)]; [|rewrite E, E'; gate_right x Hx].
    rewrite E. destruct (is_valid_value ca v true L); try gate_left; [|apply IH; exact Hs].
    destruct (a_extension ca) as [[|c e]|]; try gate_left. cbn [andb].
    destruct (mem (c :: e) L) eqn:E1, (mem (c :: e) L') eqn:E2; cbn [negb]; try gate_left.
    + right. exists (c :: e). split; [reflexivity|split; assumption].
    + rewrite (Hs _ E2) in E1. discriminate.
Qed.

Lemma cna_less : forall f t v add L L', sub L' L ->
  cna_same_or_lacks L L' (check_next_arg f t v add true L) (check_next_arg f t v add true L').
Proof.
  intros f t v add L L' Hs. unfold check_next_arg.
  destruct (negb (has_arguments (f_def f))); [gate_left|].
  destruct (iscomplete f (Some (t, v))); [gate_left|].
  destruct (f_curarg f) as [ca|]; [|apply cna_scan_less; exact Hs].
  destruct (a_extra ca) as [ex|]; [|apply cna_scan_less; exact Hs].
  gate_left.
Qed.

Lemma gci_less : forall T name L L', sub L' L ->
  get_command_instance T L' name = get_command_instance T L name \/
  exists x, get_command_instance T L' name = inr (EExtNotLoaded x) /\ lacks L L' x.
Proof.
  intros T name L L' Hs. unfold get_command_instance.
  destruct (lookup_cmd T (lower name)) as [d|]; [|left; reflexivity].
  destruct (d_extension d) as [[|c e]|]; try (left; reflexivity).
  destruct (mem (c :: e) L) eqn:E1, (mem (c :: e) L') eqn:E2; try (left; reflexivity).
  - right. exists (c :: e). split; [reflexivity|split; assumption].
  - rewrite (Hs _ E2) in E1. discriminate.
Qed.

(* states: the second run differs in the loaded extensions (a subset), in the result list, and in the
   string-list buffer, which is stale outside a string list (the next `[` resets it) *)

Definition ch (C' L' : list bytes) (R' : list node) (st : pstate) : pstate :=
  mkP (p_stack st) (p_cstate st) C' (p_expected st) (p_brackets st) L' (p_hash st) R'.

Definition names (R : list node) : list bytes := map (fun n => d_name (node_def n)) R.

Definition rel (C' L' : list bytes) (R' : list node) (st : pstate) : Prop :=
  sub L' (p_loaded st) /\ names (p_result st) = names R' /\ (p_cstate st = CStrList -> C' = p_curlist st).

Definition simst (s s' : pstate) : Prop := exists C1 L1 R1, s' = ch C1 L1 R1 s /\ rel C1 L1 R1 s.

Definition gate (L L' : list bytes) (r' : mres) : Prop := exists x, r' = MErr (EExtNotLoaded x) /\ lacks L L' x.

Definition sim (st st' : pstate) (r r' : mres) : Prop :=
  match r with
  | MTrue s => exists s', r' = MTrue s' /\ simst s s'
  | MRewind s => exists s', r' = MRewind s' /\ simst s s'
  | MFalse s => exists s', r' = MFalse s' /\ simst s s'
  | MErr e => r' = MErr e
  | MCrash => r' = MCrash
  end \/ gate (p_loaded st) (p_loaded st') r'.

(* [ch] only replaces fields: it goes through every update of the others *)
Lemma rel_frame : forall C' L' R' st s,
  rel C' L' R' st -> p_loaded s = p_loaded st -> p_result s = p_result st ->
  (p_cstate s = CStrList -> p_cstate st = CStrList /\ p_curlist s = p_curlist st) ->
  rel C' L' R' s.
Proof.
  intros C' L' R' st s (Hs & Hn & Hc) E1 E2 E3. split; [rewrite E1; exact Hs|]. split; [rewrite E2; exact Hn|].
  intro H. destruct (E3 H) as (A & B). rewrite B. exact (Hc A).
Qed.

Lemma rel_moved : forall C' L' R' st s, rel C' L' R' st -> moved st s -> rel C' L' R' s.
Proof. intros C' L' R' st s H (stk & e & ->). apply (rel_frame C' L' R' st); auto. Qed.

Lemma rel_same : forall C' L' R' st, rel C' L' R' st -> simst st (ch C' L' R' st).
Proof. intros C' L' R' st H. exists C', L', R'. auto. Qed.

Lemma sim_mmap : forall st st' C' L' R' r,
  mres_all (rel C' L' R') r -> sim st st' r (mmap (ch C' L' R') r).
Proof.
  intros st st' C' L' R' [s|s|s|e|] H; left; cbn [mmap]; try reflexivity;
    (eexists; split; [reflexivity|apply rel_same; exact H]).
Qed.

Lemma cc_loop_less : forall rest cur st C' L' R', sub L' (p_loaded st) ->
  cc_loop cur rest (ch C' L' R' st) = mmap (ch C' L' R') (cc_loop cur rest st) \/
  gate (p_loaded st) L' (cc_loop cur rest (ch C' L' R' st)).
Proof.
  induction rest as [|parent rest' IH]; intros cur st C' L' R' Hs; cbn [cc_loop]; [left; reflexivity|].
  set (p1 := attach_into cur parent).
  destruct (is_control p1 || is_test p1); [|apply IH; exact Hs].
  destruct (iscomplete p1 None).
  - destruct (is_control p1); [left; reflexivity|apply IH; exact Hs].
  - change (p_loaded (ch C' L' R' st)) with L'.
    destruct (cna_less p1 TyTest placeholder false (p_loaded st) L' Hs) as [E|(x & E & Hx)]; rewrite E.
    + destruct (check_next_arg p1 TyTest placeholder false true (p_loaded st)) as [p2 sl| | |];
        try (left; reflexivity).
      destruct (negb (iscomplete p2 None)); [|apply IH; exact Hs].
      left. destruct (d_variable_args_nb (f_def p2)); reflexivity.
    + right. exists x. split; [reflexivity|exact Hx].
Qed.

Lemma check_completion_less : forall st b C' L' R', sub L' (p_loaded st) ->
  check_completion (ch C' L' R' st) b = mmap (ch C' L' R') (check_completion st b) \/
  gate (p_loaded st) L' (check_completion (ch C' L' R' st) b).
Proof.
  intros st b C' L' R' Hs. unfold check_completion. change (p_stack (ch C' L' R' st)) with (p_stack st).
  destruct (p_stack st) as [|cur rest] eqn:Es; [left; reflexivity|].
  destruct (negb (iscomplete cur None)); [left; reflexivity|].
  destruct (is_action cur || is_control cur && negb (d_accept_children (f_def cur))).
  - left. destruct b; reflexivity.
  - apply cc_loop_less. exact Hs.
Qed.

Lemma check_completion_sim : forall st b C' L' R', rel C' L' R' st ->
  sim st (ch C' L' R' st) (check_completion st b) (check_completion (ch C' L' R' st) b).
Proof.
  intros st b C' L' R' Hrel. destruct (check_completion_less st b C' L' R' (proj1 Hrel)) as [E|G]; [|right; exact G].
  rewrite E. apply sim_mmap. eapply mres_all_impl; [|apply check_completion_moved]. intros s M. exact (rel_moved _ _ _ _ _ Hrel M).
Qed.

Lemma pop_bracket_ch : forall st b C' L' R',
  pop_bracket (ch C' L' R' st) b = match pop_bracket st b with inl s => inl (ch C' L' R' s) | inr e => inr e end.
Proof.
  intros st b C' L' R'. unfold pop_bracket. change (p_brackets (ch C' L' R' st)) with (p_brackets st).
  destruct (p_brackets st) as [|x t]; [reflexivity|]. destruct (bracket_eqb x b); reflexivity.
Qed.

Lemma sim_loaded_eq : forall st st' s1 s1' r r',
  p_loaded s1 = p_loaded st -> p_loaded s1' = p_loaded st' -> sim s1 s1' r r' -> sim st st' r r'.
Proof. intros st st' s1 s1' r r' E1 E2 [H|H]; [left; exact H|right; rewrite <- E1, <- E2; exact H]. Qed.

Lemma gate_sim : forall st st' r x r', r' = MErr (EExtNotLoaded x) -> lacks (p_loaded st) (p_loaded st') x -> sim st st' r r'.
Proof. intros st st' r x r' E H. right. exists x. split; assumption. Qed.

Definition same_sim (r r' : mres) : Prop :=
  match r with
  | MTrue s => exists s', r' = MTrue s' /\ simst s s'
  | MRewind s => exists s', r' = MRewind s' /\ simst s s'
  | MFalse s => exists s', r' = MFalse s' /\ simst s s'
  | MErr e => r' = MErr e
  | MCrash => r' = MCrash
  end.

Lemma sim_rewind : forall st st' r r', sim st st' r r' ->
  sim st st' (match r with MTrue s | MRewind s => MRewind s | MFalse s => MFalse s | MErr e => MErr e | MCrash => MCrash end)
            (match r' with MTrue s | MRewind s => MRewind s | MFalse s => MFalse s | MErr e => MErr e | MCrash => MCrash end).
Proof.
  intros st st' r r' [H|(x & -> & Hx)]; [left|right; exists x; auto].
  destruct r; cbn in H |- *; try (destruct H as (s' & -> & S); eauto); subst r'; reflexivity.
Qed.

(* go on from the states of two related outcomes, which carry the loaded extensions of their runs *)
Lemma sim_then : forall st C' L' R' s s' (k : pstate -> mres),
  simst s s' -> p_loaded s = p_loaded st -> p_loaded s' = L' ->
  (forall C1 R1, rel C1 L' R1 s -> sim s (ch C1 L' R1 s) (k s) (k (ch C1 L' R1 s))) ->
  sim st (ch C' L' R' st) (k s) (k s').
Proof.
  intros st C' L' R' s s' k (C1 & L1 & R1 & -> & Hr) E1 E2 Hk.
  change (p_loaded (ch C1 L1 R1 s)) with L1 in E2. subst L1.
  apply (sim_loaded_eq _ _ s (ch C1 L' R1 s)); [exact E1|reflexivity|]. apply Hk. exact Hr.
Qed.

Lemma m_stringlist_sim : forall st t C' L' R', rel C' L' R' st -> p_cstate st = CStrList ->
  sim st (ch C' L' R' st) (m_stringlist st t) (m_stringlist (ch C' L' R' st) t).
Proof.
  intros st t C' L' R' Hrel Hcs. pose proof Hrel as (Hs & Hn & Hc). pose proof (Hc Hcs) as EC. subst C'.
  unfold m_stringlist. change (p_stack (ch (p_curlist st) L' R' st)) with (p_stack st).
  destruct (p_stack st) as [|cur rest] eqn:Es; [left; reflexivity|].
  destruct (t_kind t); try (apply (sim_mmap _ _ (p_curlist st) L' R' (MFalse st)); exact Hrel).
  - rewrite pop_bracket_ch. destruct (pop_bracket st BRBracket) as [st1|e] eqn:Ep; [|left; reflexivity].
    destruct (pop_bracket_inl _ _ _ Ep) as (b' & _ & ->). set (st1 := with_brackets b' st).
    change (p_loaded (ch (p_curlist st) L' R' st1)) with L'.
    change (p_curlist (ch (p_curlist st) L' R' st1)) with (p_curlist st1). change (p_loaded st1) with (p_loaded st).
    destruct (cna_less cur TyStringList (VList (p_curlist st1)) true (p_loaded st) L' Hs) as [E|(x & E & Hx)];
      rewrite E; [|apply (gate_sim _ _ _ x); [reflexivity|exact Hx]].
    destruct (check_next_arg cur TyStringList (VList (p_curlist st1)) true true (p_loaded st)) as [f sl| | |];
      cbn [lift_cna]; try (left; reflexivity).
    + rewrite !replace_top_eq. change (p_stack (ch (p_curlist st) L' R' st1)) with (p_stack st1).
      set (sA := with_cstate CArgs (with_stack _ st1)).
      apply (sim_loaded_eq _ _ sA (ch (p_curlist st) L' R' sA)); [reflexivity|reflexivity|].
      apply check_completion_sim. apply (rel_frame _ _ _ st); auto; intro H; discriminate H.
    + apply (sim_mmap _ _ (p_curlist st) L' R' (MFalse st1)). apply (rel_frame _ _ _ st); auto.
  - apply (sim_mmap _ _ (p_curlist st) L' R' (MTrue (with_expected (Some [TString]) st))).
    apply (rel_frame _ _ _ st); auto.
  - destruct (negb (utf8_valid (t_val t))); [left; reflexivity|].
    apply (sim_mmap _ _ (p_curlist st ++ [t_val t]) L' R'
             (MTrue (with_expected (Some [TComma; TRightBracket]) (with_curlist (p_curlist st ++ [t_val t]) st)))).
    split; [exact Hs|]. split; [exact Hn|reflexivity].
Qed.

Lemma lift_true_sim : forall st cur ty v C' L' R', rel C' L' R' st ->
  sim st (ch C' L' R' st) (lift_cna (check_next_arg cur ty v true true (p_loaded st)) st MTrue)
                          (lift_cna (check_next_arg cur ty v true true L') (ch C' L' R' st) MTrue).
Proof.
  intros st cur ty v C' L' R' Hrel.
  destruct (cna_less cur ty v true (p_loaded st) L' (proj1 Hrel)) as [E|(x & E & Hx)]; rewrite E;
    [|apply (gate_sim _ _ _ x); [reflexivity|exact Hx]].
  destruct (check_next_arg cur ty v true true (p_loaded st)) as [f sl| | |]; cbn [lift_cna]; try (left; reflexivity).
  - rewrite !replace_top_eq. apply (sim_mmap _ _ C' L' R' (MTrue (with_stack _ st))).
    apply (rel_frame _ _ _ st); auto.
  - apply (sim_mmap _ _ C' L' R' (MFalse st)). exact Hrel.
Qed.

Lemma m_argument_sim : forall st t C' L' R', rel C' L' R' st ->
  sim st (ch C' L' R' st) (m_argument st t) (m_argument (ch C' L' R' st) t).
Proof.
  intros st t C' L' R' Hrel. pose proof Hrel as (Hs & Hn & Hc).
  unfold m_argument. change (p_stack (ch C' L' R' st)) with (p_stack st).
  destruct (p_stack st) as [|cur rest] eqn:Es; [left; reflexivity|].
  change (p_loaded (ch C' L' R' st)) with L'.
    assert (Hre : sim st (ch C' L' R' st) (m_argument_reassign cur st) (m_argument_reassign cur (ch C' L' R' st))).
  { unfold m_argument_reassign. destruct (d_non_deterministic_args (f_def cur)); [|apply (sim_mmap _ _ C' L' R' (MFalse st)); exact Hrel].
    destruct (reassign_arguments cur) as [cur'|]; [|left; reflexivity]. cbv zeta. rewrite !replace_top_eq.
    destruct (negb (iscomplete cur' None));
      [apply (sim_mmap _ _ C' L' R' (MFalse (with_stack _ st)))|apply (sim_mmap _ _ C' L' R' (MRewind (with_stack _ st)))];
      apply (rel_frame _ _ _ st); auto. }
  (* by kind: '{' and ',' (Hre); kinds __argument refuses; numbers and tags; strings; '[' is left for last *)
  destruct (t_kind t); try exact Hre;
    try (apply (sim_mmap _ _ C' L' R' (MFalse st)); exact Hrel);
    try (apply lift_true_sim; exact Hrel);
    try (destruct (negb (utf8_valid (t_val t))); [left; reflexivity|apply lift_true_sim; exact Hrel]).
  (* '[' : the buffer is reset in both runs *)
  apply (sim_mmap _ _ [] L' R'
           (MTrue (with_expected (Some [TString]) (with_curlist [] (with_cstate CStrList (with_brackets (BRBracket :: p_brackets st) st)))))).
  split; [exact Hs|]. split; [exact Hn|reflexivity].
Qed.

Lemma last_opt_names : forall R R', names R = names R' ->
  option_map (fun n => d_name (node_def n)) (last_opt R) = option_map (fun n => d_name (node_def n)) (last_opt R').
Proof.
  intros R R' H. unfold names in H. rewrite <- !last_opt_map, H. reflexivity.
Qed.

Lemma names_app : forall R R' n, names R = names R' -> names (R ++ [n]) = names (R' ++ [n]).
Proof. intros R R' n H. unfold names in *. rewrite !map_app, H. reflexivity. Qed.

(* Parser.__up reads the result list only through the name of its last command *)
Lemma up_sim : forall st C' L' R', rel C' L' R' st -> same_sim (up st) (up (ch C' L' R' st)).
Proof.
  intros st C' L' R' Hrel. pose proof Hrel as (Hs & Hn & Hc). unfold up. change (p_stack (ch C' L' R' st)) with (p_stack st).
  destruct (p_stack st) as [|cur rest] eqn:Es; [reflexivity|].
  change (p_result (ch C' L' R' st)) with R'.
  assert (Hf : forall (p p' : option node),
             option_map (fun n => d_name (node_def n)) p = option_map (fun n => d_name (node_def n)) p' ->
             match d_must_follow (f_def cur) with
             | None => true
             | Some mf => match p with None => false | Some n => mem (d_name (node_def n)) mf end
             end =
             match d_must_follow (f_def cur) with
             | None => true
             | Some mf => match p' with None => false | Some n => mem (d_name (node_def n)) mf end
             end).
  { intros p p' H. destruct (d_must_follow (f_def cur)); [|reflexivity]. destruct p, p'; cbn in H; try discriminate; [|reflexivity].
    injection H as ->. reflexivity. }
  destruct rest as [|parent rest'].
  - rewrite <- (Hf _ _ (last_opt_names _ _ Hn)). destruct (negb _); [reflexivity|].
    eexists. split; [reflexivity|]. exists C', L', (R' ++ [frame_node cur (p_hash st)]). split; [reflexivity|].
    split; [exact Hs|]. split; [apply names_app; exact Hn|exact Hc].
  - destruct (negb _); [reflexivity|].
    change (p_expected (ch C' L' R' st)) with (p_expected st).
    destruct (up_loop (attach_into cur parent) rest' (p_expected st)) as [stack' exp'].
    eexists. split; [reflexivity|]. exists C', L', R'. split; [reflexivity|]. apply (rel_frame _ _ _ st); auto.
Qed.

Lemma load_exts_sub : forall l L L', sub L' L -> sub (load_exts l L') (load_exts l L).
Proof.
  induction l as [|e t IH]; intros L L' Hs; [exact Hs|]. cbn [load_exts]. apply IH.
  intros x Hx. assert (Hx' : mem x (L' ++ [strip_dq e]) = true) by (destruct (mem (strip_dq e) L'); [apply mem_app_l|]; exact Hx).
  rewrite mem_app in Hx'. apply orb_true_iff in Hx'.
  assert (G : mem x L = true \/ x = strip_dq e).
  { destruct Hx' as [Hx'|Hx']; [left; apply Hs; exact Hx'|right]. cbn in Hx'. rewrite orb_false_r in Hx'. apply beq_eq. exact Hx'. }
  destruct (mem (strip_dq e) L) eqn:E; destruct G as [G| ->]; auto; rewrite mem_app; [rewrite G; reflexivity|].
  cbn. rewrite beq_refl. apply orb_true_r.
Qed.

Lemma complete_cb_sim : forall st C' L' R', rel C' L' R' st -> same_sim (complete_cb st) (complete_cb (ch C' L' R' st)).
Proof.
  intros st C' L' R' Hrel. pose proof Hrel as (Hs & Hn & Hc). unfold complete_cb.
  change (p_stack (ch C' L' R' st)) with (p_stack st).
  destruct (p_stack st) as [|cur rest]; [reflexivity|].
  pose proof (rel_same C' L' R' st Hrel) as Same.
  destruct (d_complete (f_def cur)); [eexists; split; [reflexivity|exact Same]|].
  destruct (assoc_get capabilities_key (f_args cur)) as [[s|l|n|ns]|]; try reflexivity;
    try (eexists; split; [reflexivity|exact Same]);
    (eexists; split; [reflexivity|]; eexists C', _, R'; split; [reflexivity|]; split;
     [apply load_exts_sub; exact Hs|split; [exact Hn|exact Hc]]).
Qed.

Lemma m_arguments_sim : forall T st t C' L' R', rel C' L' R' st ->
  sim st (ch C' L' R' st) (m_arguments T st t) (m_arguments T (ch C' L' R' st) t).
Proof.
  intros T st t C' L' R' Hrel. pose proof Hrel as (Hs & Hn & Hc). rewrite !m_arguments_eq.
  (* anything but an identifier, a parenthesis or a comma: __argument, then check_completion *)
  assert (Hdef : sim st (ch C' L' R' st) (m_arguments_default st t) (m_arguments_default (ch C' L' R' st) t)).
  { unfold m_arguments_default.
    pose proof (m_argument_keeps st t) as K. pose proof (m_argument_keeps (ch C' L' R' st) t) as K'.
    destruct (m_argument_sim st t C' L' R' Hrel) as [A|(x & A & Hx)]; [|rewrite A; apply (gate_sim _ _ _ x); [reflexivity|exact Hx]].
    destruct (m_argument st t) as [s1|s1|s1|e|]; cbn in A, K.
    - destruct A as (s1' & A & S). rewrite A in *.
      apply (sim_then st C' L' R' s1 s1' (fun s => check_completion s false) S K K').
      intros C1 R1 Hr1. cbv beta. apply check_completion_sim. exact Hr1.
    - destruct A as (s1' & A & S). rewrite A in *.
      apply (sim_then st C' L' R' s1 s1' (fun s => match check_completion s false with MTrue s2 => MRewind s2 | r => r end) S K K').
      intros C1 R1 Hr1. cbv beta. apply sim_rewind, check_completion_sim. exact Hr1.
    - destruct A as (s1' & -> & S). left. eexists. split; [reflexivity|exact S].
    - rewrite A. left. reflexivity.
    - rewrite A. left. reflexivity. }
  destruct (t_kind t) eqn:Ek; try exact Hdef.
  - apply (sim_mmap _ _ C' L' R' (MTrue (with_expected (Some [TIdentifier]) (with_brackets (BRParen :: p_brackets st) st)))).
    apply (rel_frame _ _ _ st); auto.
  - rewrite pop_bracket_ch. destruct (pop_bracket st BRParen) as [st1|e] eqn:Ep; [|left; reflexivity].
    destruct (pop_bracket_inl _ _ _ Ep) as (b' & _ & ->). left. apply up_sim. apply (rel_frame _ _ _ st); auto.
  - apply (sim_mmap _ _ C' L' R' (MTrue (with_expected (Some [TIdentifier]) st))). apply (rel_frame _ _ _ st); auto.
  - unfold m_arguments_test.
    change (p_stack (ch C' L' R' st)) with (p_stack st). change (p_loaded (ch C' L' R' st)) with L'.
    destruct (p_stack st) as [|cur rest] eqn:Es; [left; reflexivity|].
    destruct (gci_less T (t_val t) (p_loaded st) L' Hs) as [E|(x & E & Hx)]; rewrite E; [|apply (gate_sim _ _ _ x); [reflexivity|exact Hx]].
    destruct (get_command_instance T (p_loaded st) (t_val t)) as [d|e]; [|left; reflexivity].
    destruct (d_type d); try (left; reflexivity).
    destruct (cna_less cur TyTest placeholder true (p_loaded st) L' Hs) as [E2|(x & E2 & Hx)]; rewrite E2;
      [|apply (gate_sim _ _ _ x); [reflexivity|exact Hx]].
    destruct (check_next_arg cur TyTest placeholder true true (p_loaded st)) as [cur' slot| | |];
      try (left; reflexivity); [|apply (sim_mmap _ _ C' L' R' (MFalse st)); exact Hrel].
    cbv zeta. rewrite !replace_top_eq. change (p_stack (ch C' L' R' st)) with (p_stack st).
    set (sA := with_stack (_ :: _) (with_expected (d_expected_first d) (with_stack _ st))).
    apply (sim_loaded_eq _ _ sA (ch C' L' R' sA)); [reflexivity|reflexivity|].
    apply check_completion_sim. apply (rel_frame _ _ _ st); auto.
Qed.

Lemma after_false_sim : forall t st1 C' L' R', rel C' L' R' st1 ->
  sim st1 (ch C' L' R' st1) (after_false t st1) (after_false t (ch C' L' R' st1)).
Proof.
  intros t st1 C' L' R' Hrel. pose proof Hrel as (Hs & Hn & Hc). unfold after_false.
  change (p_stack (ch C' L' R' st1)) with (p_stack st1).
  assert (Same : sim st1 (ch C' L' R' st1) (MFalse st1) (MFalse (ch C' L' R' st1))) by (apply (sim_mmap _ _ C' L' R' (MFalse st1)); exact Hrel).
  destruct (t_kind t); try exact Same.
  - destruct (p_stack st1) as [|cur rest] eqn:Es; [left; reflexivity|].
    destruct (is_control cur && d_accept_children (f_def cur) && iscomplete cur None); [|exact Same].
    apply (sim_mmap _ _ C' L' R' (MTrue (with_cstate CNone (with_brackets (BRCBracket :: p_brackets st1) st1)))).
    apply (rel_frame _ _ _ st1); auto; intro H; discriminate H.
  - destruct (p_stack st1) as [|cur rest] eqn:Es; [left; reflexivity|].
    destruct (is_test cur || d_accept_children (f_def cur)); [exact Same|].
    destruct (pending_param cur); [left; reflexivity|].
    set (sA := with_cstate CNone st1). change (with_cstate CNone (ch C' L' R' st1)) with (ch C' L' R' sA).
    assert (HrA : rel C' L' R' sA) by (apply (rel_frame _ _ _ st1); auto; intro H; discriminate H).
    destruct (check_completion_less sA false C' L' R' Hs) as [A|(x & A & Hx)]; rewrite A;
      [|right; exists x; split; [reflexivity|exact Hx]].
    pose proof (check_completion_moved sA false) as M.
    destruct (check_completion sA false) as [s2|s2|s2|e|]; cbn [mmap mres_all] in *; try (left; reflexivity).
    + pose proof (complete_cb_sim s2 C' L' R' (rel_moved _ _ _ _ _ HrA M)) as C.
      pose proof (complete_cb_cases s2) as K.
      destruct (complete_cb s2) as [s3|s3|s3|e3|]; cbn in C; try contradiction.
      * destruct C as (s3' & -> & (C3 & L3 & R3 & -> & Hr3)). left. apply up_sim. exact Hr3.
      * rewrite C. left. reflexivity.
    + apply (sim_mmap _ _ C' L' R' (MFalse s2)). apply (rel_moved _ _ _ _ _ HrA M).
Qed.

Lemma on_false_sim : forall st t C' L' R' r r',
  sim st (ch C' L' R' st) r r' -> keeps (p_loaded st) r -> keeps L' r' ->
  sim st (ch C' L' R' st) (on_false t r) (on_false t r').
Proof.
  intros st t C' L' R' r r' [H|(x & -> & Hx)] K K'; [|right; exists x; split; [reflexivity|exact Hx]].
  destruct r as [s|s|s|e|]; cbn in H.
  - destruct H as (s' & -> & S). left. eexists. split; [reflexivity|exact S].
  - destruct H as (s' & -> & S). left. eexists. split; [reflexivity|exact S].
  - destruct H as (s' & -> & S). apply (sim_then st C' L' R' s s' (after_false t) S K K').
    intros C1 R1 Hr1. apply after_false_sim. exact Hr1.
  - subst r'. left. reflexivity.
  - subst r'. left. reflexivity.
Qed.

Lemma m_command_sim : forall T st t C' L' R', rel C' L' R' st ->
  sim st (ch C' L' R' st) (m_command T st t) (m_command T (ch C' L' R' st) t).
Proof.
  intros T st t C' L' R' Hrel. pose proof Hrel as (Hs & Hn & Hc).
  rewrite !m_command_eq. change (p_cstate (ch C' L' R' st)) with (p_cstate st).
  destruct (p_cstate st) eqn:Ecs.
  - unfold m_command_none.
    destruct (t_kind t); try (apply (sim_mmap _ _ C' L' R' (MFalse st)); exact Hrel).
    + rewrite pop_bracket_ch. destruct (pop_bracket st BRCBracket) as [st1|e] eqn:Ep; [|left; reflexivity].
      destruct (pop_bracket_inl _ _ _ Ep) as (b' & _ & ->). left.
      assert (Hr1 : rel C' L' R' (with_brackets b' st)) by (apply (rel_frame _ _ _ st); auto).
      pose proof (up_sim _ C' L' R' Hr1) as U.
      destruct (up (with_brackets b' st)) as [s2|s2|s2|e2|]; cbn in U |- *.
      * destruct U as (s2' & -> & (C2 & L2 & R2 & -> & Hr2)). eexists. split; [reflexivity|].
        exists C2, L2, R2. split; [reflexivity|]. apply (rel_frame _ _ _ s2); auto; intro H; discriminate H.
      * destruct U as (s2' & -> & S). eexists. split; [reflexivity|exact S].
      * destruct U as (s2' & -> & S). eexists. split; [reflexivity|exact S].
      * rewrite U. reflexivity.
      * rewrite U. reflexivity.
    + change (p_loaded (ch C' L' R' st)) with L'. change (p_stack (ch C' L' R' st)) with (p_stack st).
      destruct (gci_less T (t_val t) (p_loaded st) L' Hs) as [E|(x & E & Hx)]; rewrite E; [|apply (gate_sim _ _ _ x); [reflexivity|exact Hx]].
      destruct (get_command_instance T (p_loaded st) (t_val t)) as [d|e]; [|left; reflexivity].
      assert (Hnew : forall stk st1, p_loaded st1 = p_loaded st -> p_result st1 = p_result st ->
                sim st (ch C' L' R' st) (MTrue (with_cstate CArgs (with_stack stk st1)))
                                        (MTrue (ch C' L' R' (with_cstate CArgs (with_stack stk st1))))).
      { intros stk st1 E1 E2. apply (sim_mmap _ _ C' L' R' (MTrue _)). apply (rel_frame _ _ _ st); auto; intro H; discriminate H. }
      destruct (d_type d); try (left; reflexivity).
      * destruct (d_accept_children d && has_arguments d);
          (destruct (p_stack st) as [|cur rest]; [|destruct (d_accept_children (f_def cur)); [|left; reflexivity]]);
          apply Hnew; reflexivity.
      * destruct (p_stack st) as [|cur rest]; [|destruct (d_accept_children (f_def cur)); [|left; reflexivity]];
          apply Hnew; reflexivity.
  - apply on_false_sim; [apply m_arguments_sim; exact Hrel|apply m_arguments_keeps|].
    apply (m_arguments_keeps T (ch C' L' R' st) t).
  - apply on_false_sim; [apply m_stringlist_sim; [exact Hrel|exact Ecs]|apply m_stringlist_keeps|].
    apply (m_stringlist_keeps (ch C' L' R' st) t).
Qed.

Theorem process_sim : forall T st t C' L' R', rel C' L' R' st ->
  sim st (ch C' L' R' st) (process T st t) (process T (ch C' L' R' st) t).
Proof.
  intros T st t C' L' R' Hrel. rewrite !process_eq.
  assert (G : sim st (ch C' L' R' st) (expect_then T st t) (expect_then T (ch C' L' R' st) t)).
  { unfold expect_then. change (p_expected (ch C' L' R' st)) with (p_expected st).
    destruct (p_expected st) as [l|]; [|apply m_command_sim; exact Hrel].
    destruct (kind_mem _ l); [|left; reflexivity].
    apply (sim_loaded_eq st (ch C' L' R' st) (with_expected None st) (ch C' L' R' (with_expected None st))); [reflexivity|reflexivity|].
    apply m_command_sim. apply (rel_frame _ _ _ st); auto. }
  destruct (t_kind t); try exact G.
  - apply (sim_mmap _ _ C' L' R' (MTrue (with_hash (p_hash st ++ [strip_ws (t_val t)]) st))). apply (rel_frame _ _ _ st); auto.
  - apply (sim_mmap _ _ C' L' R' (MTrue st)). exact Hrel.
Qed.

(* whole runs over the same tokens (positions may differ: the reduced script is shorter) *)

Definition tok_eq (t t' : token) : Prop := t_kind t = t_kind t' /\ t_val t = t_val t'.

Lemma process_tok_eq : forall T st t t', tok_eq t t' -> process T st t = process T st t'.
Proof. intros T st t t' [E1 E2]. apply process_tok; assumption. Qed.

Theorem run_less : forall T fuel toks toks' endpos endpos' ll st C' L' R' res,
  Forall2 tok_eq toks toks' -> rel C' L' R' st ->
  run_tokens fuel T toks None endpos ll st = Accept res ->
  (exists res', run_tokens fuel T toks' None endpos' ll (ch C' L' R' st) = Accept res' /\ names res = names res') \/
  (exists x t' s s', In t' toks' /\
     run_tokens fuel T toks' None endpos' ll (ch C' L' R' st) = Reject (EExtNotLoaded x) (t_pos t') (length (t_val t')) /\
     simst s s' /\ lacks (p_loaded s) (p_loaded s') x).
Proof.
  intros T fuel. induction fuel as [|f IH]; intros toks toks' endpos endpos' ll st C' L' R' res Hf Hrel H; [discriminate|].
  destruct Hf as [|t t' ts ts' Ht Hts].
  - left. cbn [run_tokens] in *. unfold finish in *.
    change (p_brackets (ch C' L' R' st)) with (p_brackets st). change (p_expected (ch C' L' R' st)) with (p_expected st).
    change (p_stack (ch C' L' R' st)) with (p_stack st). change (p_result (ch C' L' R' st)) with R'.
    destruct (match p_brackets st with b :: _ => Some [closing_kind b] | [] => p_expected st end); [discriminate|].
    destruct (p_stack st); [|discriminate]. injection H as <-. exists R'. split; [reflexivity|exact (proj1 (proj2 Hrel))].
  - cbn [run_tokens] in *.
    rewrite <- (process_tok_eq T (ch C' L' R' st) t t' Ht).
    destruct Ht as [Hk Hv].
    destruct (process_sim T st t C' L' R' Hrel) as [P|(x & P & Hx)].
    + destruct (process T st t) as [s1|s1|s1|e|]; cbn in P; try discriminate.
      * destruct P as (s1' & -> & (C1 & L1 & R1 & -> & Hr1)). rewrite <- Hv.
        destruct (IH ts ts' endpos endpos' (length (t_val t)) s1 C1 L1 R1 res Hts Hr1 H) as [A|(y & u & sa & sb & Hin & A & B)];
          [left; exact A|right; exists y, u, sa, sb; split; [right; exact Hin|split; [exact A|exact B]]].
      * destruct P as (s1' & -> & (C1 & L1 & R1 & -> & Hr1)). rewrite <- Hv.
        assert (Hts' : Forall2 tok_eq (t :: ts) (t' :: ts')) by (constructor; [split; assumption|exact Hts]).
        destruct (IH (t :: ts) (t' :: ts') endpos endpos' (length (t_val t)) s1 C1 L1 R1 res Hts' Hr1 H) as [A|(y & u & sa & sb & Hin & A & B)];
          [left; exact A|right; exists y, u, sa, sb; split; [exact Hin|split; [exact A|exact B]]].
    + rewrite P. right. exists x, t', st, (ch C' L' R' st). split; [left; reflexivity|]. split; [reflexivity|].
      split; [apply rel_same; exact Hrel|exact Hx].
Qed.

(* C07, removal direction.  [full] and [red] are two scripts that lex to [pre ++ rest] and [pre' ++ rest'], where
   the remainders are the same tokens (positions aside) and the prefixes -- the `require` commands -- are processed
   without error and leave the parser in related states (same stack, expectations and brackets; the reduced script
   has loaded a subset of the extensions).  If the full script is accepted, the reduced one is either accepted too
   (with the same commands) or rejected with "extension 'x' not loaded" at a token of the remainder.  The states
   s, s' of the second alternative are not tied to the run by the statement: that x is missing at the first point
   where the two runs part is what [process_sim] says step by step, not this theorem. *)
Theorem removal_dichotomy : forall T full red pre pre' rest rest' stA stB r,
  twf_tables T = true ->
  snd (lex full) = None -> snd (lex red) = None ->
  fst (lex full) = pre ++ rest -> fst (lex red) = pre' ++ rest' -> Forall2 tok_eq rest rest' ->
  steps T p_init (map strip_pos pre) = Some stA -> steps T p_init (map strip_pos pre') = Some stB ->
  simst stA stB ->
  parse T full = Accept r ->
  (exists r', parse T red = Accept r' /\ names r = names r') \/
  (exists x t' s s', In t' rest' /\ parse T red = Reject (EExtNotLoaded x) (t_pos t') (length (t_val t')) /\
                     simst s s' /\ lacks (p_loaded s) (p_loaded s') x).
Proof.
  intros T full red pre pre' rest rest' stA stB r HT El El' Et Et' Hrest HA HB (C' & L' & R' & -> & Hrel) Hacc.
  pose proof (parse_total T red HT) as Htot.
  rewrite parse_run_tokens in Hacc, Htot |- *. rewrite El, Et in Hacc. rewrite El', Et' in Htot |- *.
  pose proof (token_count full) as Hc. rewrite Et, app_length in Hc.
  pose proof (token_count red) as Hc'. rewrite Et', app_length in Hc'.
  set (F := 2 * length full + 2) in *. set (F' := 2 * length red + 2) in *.
  destruct (steps_then_run T pre p_init stA F rest None (length full) 0 HA ltac:(unfold F; lia)) as (la & PA).
  rewrite PA in Hacc.
  destruct (steps_then_run T pre' p_init (ch C' L' R' stA) F' rest' None (length red) 0 HB ltac:(unfold F'; lia)) as (lb & PB).
  rewrite PB in Htot |- *.
  set (f := F - length pre) in *. set (f' := F' - length pre') in *.
  set (G := Nat.max f f').
  assert (HG : run_tokens G T rest None (length full) la stA = Accept r).
  { apply (run_tokens_more T f G _ _ _ _ _ _ (Nat.le_max_l f f') Hacc). discriminate. }
  (* the last-token length the two runs carry may differ: it only matters for what is reported at the end *)
  pose proof (run_tokens_lastlen T G rest None (length full) la lb stA) as HG'. rewrite HG in HG'.
  assert (M : run_tokens G T rest' None (length red) lb (ch C' L' R' stA) =
              run_tokens f' T rest' None (length red) lb (ch C' L' R' stA)).
  { apply (run_tokens_more T f' G); [apply Nat.le_max_r|reflexivity|]. intro X. rewrite X in Htot. exact Htot. }
  destruct (run_less T G rest rest' (length full) (length red) lb stA C' L' R' r Hrest Hrel HG')
    as [(r' & A & Hn)|(x & t' & s & s' & Hin & A & B)]; rewrite M in A.
  - left. exists r'. split; [exact A|exact Hn].
  - right. exists x, t', s, s'. split; [exact Hin|]. split; [exact A|exact B].
Qed.

Print Assumptions process_sim.
Print Assumptions run_less.
Print Assumptions removal_dichotomy.

From SV Require Import sieve.ArgSpec sieve.ArgCheckFacts.

(* the argument language is monotone in the loaded extensions: more of them never turns an accepted argument
   list away (check_next_arg, cna_less), and check_next_arg is what the argument language describes *)

Lemma feed_mono : forall args f f' L L', sub L L' -> feed f args L = FOk f' -> feed f args L' = FOk f'.
Proof.
  induction args as [|[t v] args IH]; intros f f' L L' Hs H; [exact H|]. cbn [feed fst snd] in *.
  destruct (cna_less f t v true L' L Hs) as [E|(x & E & _)]; rewrite E in H; [|discriminate].
  destruct (check_next_arg f t v true true L'); try discriminate. apply (IH _ _ _ _ Hs H).
Qed.

Lemma arg_ok_shape : forall args, Forall arg_ok args -> Forall (fun a => arg_shape_ok a = true) args.
Proof.
  intros args H. eapply Forall_impl; [|exact H]. intros [t v] Ha.
  destruct t, v; try contradiction; reflexivity.
Qed.

Lemma legal_mono : forall d L L' args am em,
  wf_def d = true -> fixed_arity d = true -> Forall arg_ok args -> sub L L' ->
  legal d L args = LComplete am em -> legal d L' args = LComplete am em.
Proof.
  intros d L L' args am em Wf Fa Ha Hs H. apply arg_ok_shape in Ha.
  pose proof (argcheck_correct_gen d AtTop L args Wf Fa Ha) as C. unfold corr_stmt in C. rewrite H in C.
  destruct C as (f & F & Cf & <- & <-). apply (feed_mono _ _ _ _ _ Hs) in F.
  pose proof (argcheck_correct_gen d AtTop L' args Wf Fa Ha) as C'. unfold corr_stmt in C'. rewrite F in C'.
  destruct (legal d L' args) as [am' em'|am' em'|e]; [|exfalso|discriminate C'];
    destruct C' as (f' & F' & Cf' & <- & <-); injection F' as <-; [reflexivity|congruence].
Qed.

Lemma gci_mono : forall T L L' name d, sub L L' ->
  get_command_instance T L name = inl d -> get_command_instance T L' name = inl d.
Proof.
  intros T L L' name d Hs H. destruct (gci_less T name L' L Hs) as [E|(x & E & _)]; rewrite E in H; [exact H|discriminate].
Qed.
