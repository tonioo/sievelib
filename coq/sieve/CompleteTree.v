(* CompleteTree.v — completeness and faithfulness of the parser machine for whole scripts (C01, C03): every script of
   a grammar of tests (simple tests, not, anyof / allof, nested), blocks, if / elsif / else chains and require is
   accepted, with exactly the tree of its derivation, also with hash comments before top-level commands. *)
From Coq Require Import String.
From Coq Require Import List NArith Bool Arith Lia.
From SV Require Import Bytes BytesFacts Lexer Tables ArgCheck ArgSpec Machine MachineFacts ArgCheckFacts PositionFacts TotalFacts CompleteFacts.
Import ListNotations.
Local Open Scope nat_scope.

Local Arguments check_next_arg : simpl never.
Local Arguments iscomplete : simpl never.
Local Arguments get_command_instance : simpl never.
Local Arguments check_completion : simpl never.
Local Arguments up : simpl never.
Local Arguments attach_into : simpl never.

Definition ostep (r : mres) : option pstate := match r with MTrue s => Some s | _ => None end.

Definition same_env (st st' : pstate) : Prop :=
  p_brackets st' = p_brackets st /\ p_loaded st' = p_loaded st /\ p_hash st' = p_hash st /\
  p_result st' = p_result st.

Lemma same_env_refl : forall st, same_env st st. Proof. intro. unfold same_env. auto. Qed.
Lemma same_env_trans : forall a b c, same_env a b -> same_env b c -> same_env a c.
Proof. intros a b c (A1 & A2 & A3 & A4) (B1 & B2 & B3 & B4). unfold same_env. repeat split; congruence. Qed.

Record cur_is (st : pstate) (f : frame) (rest : list frame) : Prop := {
  ci_stack : p_stack st = f :: rest;
  ci_cstate : p_cstate st = CArgs;
  ci_expected : p_expected st = None;
  ci_fi : fi f
}.

Theorem run_args_gen : forall T args st f rest fN,
  cur_is st f rest -> Forall arg_ok args -> args <> [] ->
  feed f args (p_loaded st) = FOk fN ->
  exists stX ts, steps T st (flat_map arg_toks args) = ostep (check_completion stX ts) /\
                 p_stack stX = fN :: rest /\ p_cstate stX = CArgs /\ p_expected stX = None /\ same_env st stX /\
                 fi fN /\ f_def fN = f_def f /\ f_attach fN = f_attach f /\ f_children fN = f_children f.
Proof.
  intros T args st f rest fN [Es Hc He Hfi] Hall Hne Hfeed.
  destruct (feed_steps T args st f rest fN Es Hc He Hfi Hall Hfeed)
    as [(-> & _)|(pre & t & stB & stX & ts & Et & Sp & P & SX & EX & (CX & VX) & FX & DX & AX & KX)]; [congruence|].
  rewrite Hc in CX. exists stX, ts. rewrite Et, steps_app, Sp. cbn [steps]. rewrite P. auto 12.
Qed.

Lemma lparen_step : forall T st t,
  p_cstate st = CArgs -> p_expected st = Some [TLeftParen] -> t_kind t = TLeftParen ->
  process T st t = MTrue (with_expected (Some [TIdentifier]) (with_brackets (BRParen :: p_brackets st) (with_expected None st))).
Proof.
  intros T st t Hc He Hk. rewrite process_passes by (rewrite ?He, Hk; first [discriminate|reflexivity]).
  rewrite m_command_eq. pcbn. rewrite Hc, m_arguments_eq, Hk. reflexivity.
Qed.

Lemma process_comma_args : forall T st t,
  p_cstate st = CArgs -> p_expected st = Some [TComma; TRightParen] -> t_kind t = TComma ->
  process T st t = MTrue (with_expected (Some [TIdentifier]) (with_expected None st)).
Proof.
  intros T st t Hc He Hk. rewrite process_passes by (rewrite ?He, Hk; first [discriminate|reflexivity]).
  rewrite m_command_eq. pcbn. rewrite Hc, m_arguments_eq, Hk. reflexivity.
Qed.

Inductive gtest :=
| GSimple (name : bytes) (args : list argument)      (* header, exists, size, true, ... *)
| GNot (name : bytes) (t : gtest)                    (* a test taking one test *)
| GList (name : bytes) (ts : list gtest).            (* a test taking a parenthesised test list *)

Lemma gtest_ind' : forall P : gtest -> Prop,
  (forall name args, P (GSimple name args)) -> (forall name t, P t -> P (GNot name t)) ->
  (forall name ts, Forall P ts -> P (GList name ts)) -> forall t, P t.
Proof.
  intros P H1 H2 H3. fix IH 1. intros [name args|name t|name ts]; [apply H1|apply H2, IH|apply H3].
  induction ts as [|x r IHr]; constructor; [apply IH|exact IHr].
Qed.

Fixpoint toks_test (t : gtest) : list token :=
  match t with
  | GSimple name args => mk TIdentifier name :: flat_map arg_toks args
  | GNot name t' => mk TIdentifier name :: toks_test t'
  | GList name ts =>
      mk TIdentifier name :: mk TLeftParen [40%N] ::
      (fix go (l : list gtest) : list token :=
         match l with
         | [] => []
         | [x] => toks_test x
         | x :: r => toks_test x ++ mk TComma [44%N] :: go r
         end) ts ++ [mk TRightParen [41%N]]
  end.

Fixpoint toks_tests (l : list gtest) : list token :=
  match l with
  | [] => []
  | [x] => toks_test x
  | x :: r => toks_test x ++ mk TComma [44%N] :: toks_tests r
  end.

Lemma toks_test_list : forall name ts,
  toks_test (GList name ts) = mk TIdentifier name :: mk TLeftParen [40%N] :: toks_tests ts ++ [mk TRightParen [41%N]].
Proof.
  intros name ts. reflexivity.
Qed.

Inductive tkind2 := Kcc | Kup.
Fixpoint kind_of (t : gtest) : tkind2 :=
  match t with GSimple _ _ => Kcc | GNot _ t' => kind_of t' | GList _ _ => Kup end.

Section Tests.
  Variable T : tables.
  Variable L : list bytes.
  Hypothesis HT : twf_tables T = true.

  (* A simple test is one whose first token is not prescribed
     (d_expected_first d = None); only a list test is left through __up (at ')'), which checks must_follow, hence
     d_must_follow d = None there and nowhere else: a test left by check_completion's walk never gets that check. *)
  Inductive wf_test : gtest -> node -> Prop :=
  | wf_simple : forall name d args am em,
      get_command_instance T L name = inl d -> d_type d = CTest -> has_test_slot d = false ->
      d_expected_first d = None ->
      wf_def d = true -> fixed_arity d = true -> Forall arg_ok args ->
      legal d L args = LComplete am em ->
      wf_test (GSimple name args) (Node d am em [] [])
  | wf_not : forall name d a t' n',
      get_command_instance T L name = inl d -> d_type d = CTest -> d_args d = [a] -> is_t1 a = true ->
      wf_test t' n' ->
      wf_test (GNot name t') (Node d [(a_name a, VTest n')] [] [] [])
  | wf_list : forall name d a ts ns,
      get_command_instance T L name = inl d -> d_type d = CTest -> d_args d = [a] -> is_tl a = true ->
      d_must_follow d = None -> ts <> [] ->
      Forall2 wf_test ts ns ->
      wf_test (GList name ts) (Node d [(a_name a, VTests ns)] [] [] []).

  (* how the machine leaves a finished test: check_completion's walk (after the last argument) or __up's
     walk (after ')') *)
  Definition leave (k : tkind2) (F : frame) (stack : list frame) (stX : pstate) : mres :=
    match k with
    | Kcc => cc_loop F stack stX
    | Kup =>
        match stack with
        | P1 :: rest =>
            let '(s', e') := up_loop (attach_into F P1) rest None in
            MTrue (with_stack s' (with_expected e' stX))
        | [] => MCrash
        end
    end.

  (* the attach mode Machine.m_arguments (its local at_) gives a test that goes into slot ca *)
  Definition at_of (ca : argdef) : attach :=
    match a_type ca with [TyTestList] => AtTestList (a_name ca) | _ => AtTest (a_name ca) end.

  Lemma push_test : forall st P rest P1 ca t d,
    p_stack st = P :: rest -> p_cstate st = CArgs -> passes (p_expected st) TIdentifier -> p_loaded st = L ->
    check_next_arg P TyTest placeholder true true L = CnaOk P1 (Some ca) ->
    t_kind t = TIdentifier -> get_command_instance T L (t_val t) = inl d -> d_type d = CTest ->
    process T st t =
    check_completion (with_stack (new_frame d (at_of ca) :: P1 :: rest) (with_expected (d_expected_first d) st)) false.
  Proof.
    intros st P rest P1 ca t d Es Hc Hp Hl E Hk Hg Hty.
    rewrite process_passes by (rewrite Hk; first [discriminate|exact Hp]).
    rewrite m_command_eq. pcbn. rewrite Hc, m_arguments_eq, Hk. unfold m_arguments_test. pcbn. rewrite Es, Hl, Hg, Hty, E.
    unfold at_of, replace_top, on_false. pcbn. rewrite Es.
    (* the scrutinee [c] is check_completion of a state convertible with the one of the statement *)
    match goal with |- match ?c with _ => _ end = ?c' => change c with c'; destruct c'; try reflexivity end.
    unfold after_false. rewrite Hk. reflexivity.
  Qed.

  Lemma cc_test_complete : forall st F rest ts,
    p_stack st = F :: rest -> iscomplete F None = true -> is_test F = true ->
    check_completion st ts = cc_loop F rest st.
  Proof.
    intros st F rest ts Es Hc Ht. rewrite (check_completion_eq st F rest ts Es), Hc.
    unfold is_action, is_control, is_test in *. destruct (d_type (f_def F)); try discriminate. reflexivity.
  Qed.

  Definition t1f (d : cmddef) (a : argdef) (at_ : attach) (v : aval) (N : frame) : Prop :=
    fi N /\ f_def N = d /\ f_attach N = at_ /\ iscomplete N None = true /\
    f_args N = [(a_name a, v)] /\ f_extra N = [] /\ f_children N = [].

  Lemma cna_t1_new : forall d at_ a,
    twf d = true -> d_args d = [a] -> is_t1 a = true ->
    exists N1, check_next_arg (new_frame d at_) TyTest placeholder true true L = CnaOk N1 (Some a) /\
               t1f d a at_ placeholder N1.
  Proof.
    intros d at_ a Htw Ha Ht1.
    destruct (test_slot_facts d a Htw Ha (or_introl Ht1)) as (Hreq & Hnv & Hnoex & Hts & Hv1 & _).
    destruct (Hv1 Ht1) as (Hnvar & _).
    set (N := mkFrame d [] [] [] 0 0 None at_).
    change (new_frame d at_) with N.
    assert (Hfi : fi N) by (apply (fi_new_frame d at_); exact Htw).
    pose proof (cna_post_holds N TyTest placeholder true true L Hfi I) as P.
    assert (Htl : is_tl a = false) by (unfold is_t1, is_tl in *; destruct (a_type a) as [|[] [|y l]]; try discriminate; reflexivity).
    assert (Hic : iscomplete N (Some (TyTest, placeholder)) = false).
    { unfold iscomplete, N, required_args. cbn. rewrite Hnvar, Ha. cbn. rewrite Hreq. reflexivity. }
    assert (Hvt : is_valid_type TyTest (a_type a) = true).
    { unfold is_t1 in Ht1. destruct (a_type a) as [|[] [|y l]]; try discriminate. reflexivity. }
    assert (Hiv : is_valid_value a placeholder true L = VTrue).
    { unfold is_valid_value. unfold has_vals in Hnv. destruct (a_values a), (a_extension_values a); try discriminate. reflexivity. }
    assert (Hcomp : check_next_arg N TyTest placeholder true true L =
                    CnaOk (set_arg (set_counters (set_curarg N (Some a)) 1 1) (a_name a) placeholder) (Some a)).
    { unfold check_next_arg, has_arguments. rewrite Hic.
      change (f_def N) with d. change (f_curarg N) with (@None argdef). change (f_nextargpos N) with 0.
      rewrite Ha. cbn [negb skipn cna_scan]. rewrite Hreq, match_testlist. change (only_testlist (a_type a)) with (is_tl a). rewrite Htl, Hvt. cbn [negb].
      rewrite Hiv. reflexivity. }
    eexists. split; [exact Hcomp|]. rewrite Hcomp in P.
    destruct P as (Hd & Hat & Hch & Hf1 & P). destruct (P eq_refl) as (ca & Hca & Hargs & Hk).
    inversion Hca; subst ca.
    destruct Hk as [(Htl' & _)|(_ & Hc)]; [congruence|]. unfold t1f.
    split; [exact Hf1|]. split; [reflexivity|]. split; [reflexivity|]. split; [exact Hc|]. split; [reflexivity|]. split; reflexivity.
  Qed.

  Lemma t1_attach : forall d a at_ N1 F,
    has_test_slot d = true -> t1f d a at_ placeholder N1 -> f_attach F = AtTest (a_name a) ->
    t1f d a at_ (VTest (frame_node F [])) (attach_into F N1).
  Proof.
    intros d a at_ N1 F Hts (H1 & H2 & H3 & H4 & H5 & H6 & H7) HaF.
    destruct (fi_attach F N1 H1) as (B1 & B2 & B3 & B4 & B5); [rewrite HaF, H2; exact Hts|].
    unfold t1f. split; [exact B1|]. split; [congruence|]. split; [congruence|].
    split; [rewrite (iscomplete_ext N1 _ None B2 B4 B5); exact H4|].
    unfold attach_into. rewrite HaF. unfold set_arg. cbn. rewrite H5. cbn. rewrite beq_refl. auto.
  Qed.

  (* The induction predicate for tests.  P is the command that takes the test, P1 is P after check_next_arg stored
     the placeholder, ca its slot; F is the frame of the finished test.  The conclusion stops at [leave]: how far the
     walk goes from there depends on the ancestors. *)
  Definition Pst (t : gtest) (n : node) : Prop :=
    forall st P rest P1 ca,
      p_stack st = P :: rest -> p_cstate st = CArgs -> passes (p_expected st) TIdentifier -> p_loaded st = L ->
      fi P -> check_next_arg P TyTest placeholder true true L = CnaOk P1 (Some ca) ->
      exists F stX,
        steps T st (toks_test t) = ostep (leave (kind_of t) F (P1 :: rest) stX) /\
        p_cstate stX = CArgs /\ same_env st stX /\ (kind_of t = Kup -> p_expected stX = None) /\
        fi F /\ f_attach F = at_of ca /\ frame_node F [] = n /\ is_test F = true /\
        (kind_of t = Kcc -> iscomplete F None = true).

  Lemma leave_test : forall k F P gp rest stX,
    is_test (attach_into F P) = true -> iscomplete (attach_into F P) None = true ->
    leave k F (P :: gp :: rest) stX = leave k (attach_into F P) (gp :: rest) stX.
  Proof.
    intros k F P gp rest stX Ht Hc. destruct k; cbn [leave cc_loop].
    - rewrite Ht, Hc, orb_true_r. unfold is_control, is_test in *. destruct (d_type (f_def (attach_into F P))); try discriminate. reflexivity.
    - rewrite (up_loop_eq (attach_into F P)), Ht, Hc. reflexivity.
  Qed.

  Lemma leave_control : forall k F P rest stX,
    is_control (attach_into F P) = true -> iscomplete (attach_into F P) None = true ->
    leave k F (P :: rest) stX =
    MTrue (with_stack (attach_into F P :: rest)
             (with_expected (match k with Kcc => Some [TLeftCBracket] | Kup => None end) stX)).
  Proof.
    intros k F P rest stX Hctl Hc. destruct k; cbn [leave cc_loop].
    - rewrite Hctl, Hc. reflexivity.
    - rewrite up_loop_nontest by (apply is_control_not_test; exact Hctl). reflexivity.
  Qed.

  Lemma run_simple : forall name d args am em,
    get_command_instance T L name = inl d -> d_type d = CTest ->
    d_expected_first d = None ->
    wf_def d = true -> fixed_arity d = true -> Forall arg_ok args ->
    legal d L args = LComplete am em ->
    Pst (GSimple name args) (Node d am em [] []).
  Proof.
    intros name d args am em Hg Hty Hef Hwf Hfa Hall Hleg st P rest P1 ca Es Hc Hp Hl HfP E.
    assert (Htw : twf d = true) by (eapply gci_twf; eauto).
    set (N := new_frame d (at_of ca)).
    set (stN := with_stack (N :: P1 :: rest) (with_expected (d_expected_first d) st)).
    pose proof (push_test st P rest P1 ca (mk TIdentifier name) d Es Hc Hp Hl E eq_refl Hg Hty) as P0.
    fold N in P0. fold stN in P0.
    destruct (legal_complete_feed d (at_of ca) L args Hwf Hfa Hall am em Hleg) as (fN & Hfeed & Hcomp & Ham & Hem).
    fold N in Hfeed. rewrite <- Hl in Hfeed.
    assert (HtN : is_test N = true) by (unfold is_test; cbn; rewrite Hty; reflexivity).
    assert (HvN : same_env st stN) by (unfold same_env, stN; pcbn; auto).
    cbn [toks_test steps kind_of]. rewrite P0.
    destruct args as [|a0 args'].
    -
      injection Hfeed as <-.
      rewrite (cc_test_complete stN N (P1 :: rest) false eq_refl Hcomp HtN).
      exists N, stN. split; [reflexivity|]. split; [exact Hc|]. split; [exact HvN|]. split; [discriminate|].
      split; [apply fi_new_frame; exact Htw|]. split; [reflexivity|].
      split; [unfold frame_node; rewrite Ham, Hem; reflexivity|]. auto.
    - (* arguments: the frame is incomplete until the last one *)
      rewrite (cc_incomplete stN N (P1 :: rest) false eq_refl (feed_cons_incomplete _ _ _ _ _ Hfeed)). cbn [ostep].
      assert (Hci : cur_is stN N (P1 :: rest)) by (constructor; [reflexivity|exact Hc|exact Hef|apply fi_new_frame; exact Htw]).
      destruct (run_args_gen T (a0 :: args') stN N (P1 :: rest) fN Hci Hall ltac:(discriminate) Hfeed)
        as (stX & ts & PX & SX & CX & EX & VX & FX & DX & AX & KX).
      assert (HtF : is_test fN = true) by (rewrite (is_test_def N fN DX); exact HtN).
      rewrite PX, (cc_test_complete stX fN (P1 :: rest) ts SX Hcomp HtF).
      exists fN, stX. split; [reflexivity|]. split; [exact CX|]. split; [apply (same_env_trans _ _ _ HvN VX)|].
      split; [discriminate|]. split; [exact FX|]. split; [rewrite AX; reflexivity|].
      split; [unfold frame_node; rewrite DX, Ham, Hem, KX; reflexivity|]. auto.
  Qed.

  Lemma at_of_t1 : forall a, is_t1 a = true -> at_of a = AtTest (a_name a).
  Proof. intros a H. unfold at_of, is_t1 in *. destruct (a_type a) as [|[] [|y l]]; try discriminate; reflexivity. Qed.

  Lemma at_of_tl : forall a, is_tl a = true -> at_of a = AtTestList (a_name a).
  Proof. intros a H. unfold at_of, is_tl in *. destruct (a_type a) as [|[] [|y l]]; try discriminate; reflexivity. Qed.

  Lemma run_not : forall name d a t' n',
    get_command_instance T L name = inl d -> d_type d = CTest -> d_args d = [a] -> is_t1 a = true ->
    Pst t' n' ->
    Pst (GNot name t') (Node d [(a_name a, VTest n')] [] [] []).
  Proof.
    intros name d a t' n' Hg Hty Ha Ht1 IH st P rest P1 ca Es Hc Hp Hl HfP E.
    assert (Htw : twf d = true) by (eapply gci_twf; eauto).
    destruct (test_slot_facts d a Htw Ha (or_introl Ht1)) as (_ & _ & _ & Hts & Hv1 & _).
    pose proof (proj2 (Hv1 Ht1) Hty) as Hef.
    set (N := new_frame d (at_of ca)).
    set (stN := with_stack (N :: P1 :: rest) (with_expected (d_expected_first d) st)).
    pose proof (push_test st P rest P1 ca (mk TIdentifier name) d Es Hc Hp Hl E eq_refl Hg Hty) as P0.
    fold N in P0. fold stN in P0.
    destruct (cna_t1_new d (at_of ca) a Htw Ha Ht1) as (N1 & EN & HN1). fold N in EN.
    cbn [toks_test steps kind_of].
    rewrite P0, (cc_incomplete stN N (P1 :: rest) false eq_refl (cna_ok_incomplete _ _ _ _ _ _ _ _ EN)).
    (* the inner test, with the fresh frame as the command that takes it *)
    destruct (IH stN N (P1 :: rest) N1 a eq_refl Hc ltac:(unfold stN; pcbn; rewrite Hef; reflexivity) Hl
                 (fi_new_frame _ _ Htw) EN)
      as (F' & stX & PX & CX & VX & UX & FX & AX & NX & TX & KX).
    rewrite (at_of_t1 a Ht1) in AX.
    destruct (t1_attach d a (at_of ca) N1 F' Hts HN1 AX) as (G1 & G2 & G3 & G4 & G5 & G6 & G7).
    rewrite NX in G5.
    assert (HtFn : is_test (attach_into F' N1) = true) by (unfold is_test; rewrite G2, Hty; reflexivity).
    exists (attach_into F' N1), stX.
    split; [rewrite PX, (leave_test _ F' N1 P1 rest stX HtFn G4); reflexivity|].
    split; [exact CX|].
    split; [apply (same_env_trans st stN stX); [unfold same_env, stN; pcbn; auto|exact VX]|].
    split; [exact UX|]. split; [exact G1|]. split; [exact G3|].
    split; [unfold frame_node; rewrite G2, G5, G6, G7; reflexivity|]. auto.
  Qed.

  Section ListTest.
    Variables (d : cmddef) (a : argdef) (at_ : attach) (P1 : frame) (rest : list frame).
    Hypothesis Htw : twf d = true.
    Hypothesis Hty : d_type d = CTest.
    Hypothesis Ha : d_args d = [a].
    Hypothesis Htl : is_tl a = true.

    Definition listf (l : list node) (Nf : frame) : Prop :=
      fi Nf /\ f_def Nf = d /\ f_attach Nf = at_ /\ f_extra Nf = [] /\ f_children Nf = [] /\
      f_args Nf = (match l with [] => [] | _ => [(a_name a, VTests l)] end).

    Lemma listf_new : listf [] (new_frame d at_).
    Proof. unfold listf. split; [apply fi_new_frame; exact Htw|]. cbn. auto. Qed.

    Lemma listf_facts : forall l Nf, listf l Nf ->
      has_test_slot (f_def Nf) = true /\ d_variable_args_nb (f_def Nf) = true /\ is_test Nf = true /\
      iscomplete Nf None = false.
    Proof.
      intros l Nf (H1 & H2 & _). destruct (test_slot_facts d a Htw Ha (or_intror Htl)) as (_ & _ & _ & Hts & _ & Hv).
      destruct (Hv Htl) as (Hvar & _). rewrite H2. split; [exact Hts|]. split; [exact Hvar|].
      split; [unfold is_test; rewrite H2, Hty; reflexivity|]. unfold iscomplete. rewrite H2, Hvar. reflexivity.
    Qed.

    Lemma listf_cna : forall l Nf add, listf l Nf ->
      check_next_arg Nf TyTest placeholder add true L = CnaOk Nf (Some a).
    Proof.
      intros l Nf add H. destruct (listf_facts l Nf H) as (Hts & Hv & _ & _). destruct H as (H1 & H2 & _).
      destruct (cna_vartest Nf placeholder add true L H1 Hts Hv) as (a' & E).
      assert (Hin : a' = a).
      { pose proof (cna_post_holds Nf TyTest placeholder add true L H1 I) as P. rewrite E in P.
        destruct P as (_ & _ & _ & _ & P). destruct (P eq_refl) as (ca & Hca & Hargs & _).
        inversion Hca; subst ca. rewrite H2, Ha in Hargs. inversion Hargs. reflexivity. }
      rewrite <- Hin. exact E.
    Qed.

    Lemma listf_attach : forall l Nf F n,
      listf l Nf -> f_attach F = AtTestList (a_name a) -> frame_node F [] = n ->
      listf (l ++ [n]) (attach_into F Nf).
    Proof.
      intros l Nf F n H HaF Hn. destruct (listf_facts l Nf H) as (Hts & _).
      pose proof H as (H1 & H2 & H3 & H4 & H5 & H6).
      destruct (fi_attach F Nf H1) as (B1 & B2 & B3 & B4 & B5); [rewrite HaF; exact Hts|].
      unfold listf. split; [exact B1|]. split; [congruence|]. split; [congruence|].
      unfold attach_into. rewrite HaF. unfold append_test, set_arg. cbn. rewrite H4, H5, H6, Hn.
      split; [reflexivity|]. split; [reflexivity|].
      destruct l as [|x l']; cbn; [|rewrite beq_refl]; reflexivity.
    Qed.

    Lemma leave_into_list : forall k F Nf l stX,
      listf l Nf -> f_attach F = AtTestList (a_name a) -> p_loaded stX = L ->
      leave k F (Nf :: P1 :: rest) stX =
      MTrue (with_stack (attach_into F Nf :: P1 :: rest) (with_expected (Some [TComma; TRightParen]) stX)).
    Proof.
      intros k F Nf l stX H HaF HlX.
      pose proof (listf_attach l Nf F (frame_node F []) H HaF eq_refl) as H2.
      set (N2 := attach_into F Nf) in *.
      destruct (listf_facts _ N2 H2) as (Hts & Hv & Ht & Hinc).
      unfold leave. destruct k.
      - cbn [cc_loop]. fold N2.
        rewrite Ht, orb_true_r, Hinc, HlX, (listf_cna _ N2 false H2), Hinc, Hv. reflexivity.
      - fold N2. rewrite (up_loop_eq N2 (P1 :: rest) None), Ht, Hinc, Hv. reflexivity.
    Qed.

    Lemma tests_loop : forall ts ns,
      Forall2 Pst ts ns -> ts <> [] ->
      forall l0 Nf st,
        listf l0 Nf ->
        p_stack st = Nf :: P1 :: rest -> p_cstate st = CArgs -> p_expected st = Some [TIdentifier] -> p_loaded st = L ->
        exists Nf' st',
          steps T st (toks_tests ts) = Some st' /\ listf (l0 ++ ns) Nf' /\
          p_stack st' = Nf' :: P1 :: rest /\ p_cstate st' = CArgs /\
          p_expected st' = Some [TComma; TRightParen] /\ same_env st st'.
    Proof.
      intros ts ns HF. induction HF as [|t n ts' ns' Hp HF' IH]; intros Hne l0 Nf st Hl Es Hc He HL; [congruence|].
      pose proof Hl as (Hfi & _).
      destruct (Hp st Nf (P1 :: rest) Nf a Es Hc ltac:(rewrite He; reflexivity) HL Hfi (listf_cna l0 Nf true Hl))
        as (F & stX & PX & CX & VX & UX & FX & AX & NX & TX & KX).
      rewrite (at_of_tl a Htl) in AX.
      assert (HlX : p_loaded stX = L) by (destruct VX as (_ & V2 & _); congruence).
      rewrite (leave_into_list (kind_of t) F Nf l0 stX Hl AX HlX) in PX. cbn [ostep] in PX.
      pose proof (listf_attach l0 Nf F n Hl AX NX) as Hl2.
      set (N2 := attach_into F Nf) in *.
      set (st2 := with_stack (N2 :: P1 :: rest) (with_expected (Some [TComma; TRightParen]) stX)) in *.
      assert (V2 : same_env st st2) by (apply (same_env_trans st stX st2 VX); unfold same_env, st2; pcbn; auto).
      destruct ts' as [|t2 ts2].
      - inversion HF'; subst ns'. cbn [toks_tests]. exists N2, st2.
        split; [exact PX|]. split; [exact Hl2|]. split; [reflexivity|]. split; [exact CX|]. split; [reflexivity|exact V2].
      - change (toks_tests (t :: t2 :: ts2)) with (toks_test t ++ mk TComma [44%N] :: toks_tests (t2 :: ts2)).
        rewrite steps_app, PX. cbn [steps].
        rewrite (process_comma_args T st2 (mk TComma [44%N]) CX eq_refl eq_refl).
        set (st3 := with_expected (Some [TIdentifier]) (with_expected None st2)).
        destruct (IH ltac:(discriminate) (l0 ++ [n]) N2 st3 Hl2 eq_refl CX eq_refl HlX)
          as (Nf' & st' & P' & L' & S' & C' & E' & V').
        exists Nf', st'. split; [exact P'|]. rewrite <- app_assoc in L'. split; [exact L'|]. split; [exact S'|].
        split; [exact C'|]. split; [exact E'|].
        apply (same_env_trans st st3 st'); [|exact V'].
        apply (same_env_trans st st2 st3 V2). unfold same_env, st3; pcbn; auto.
    Qed.
  End ListTest.

  Lemma list_test_members : forall name v d a ts ns st P rest P1 ca,
    p_stack st = P :: rest -> p_cstate st = CArgs -> passes (p_expected st) TIdentifier -> p_loaded st = L ->
    check_next_arg P TyTest placeholder true true L = CnaOk P1 (Some ca) ->
    get_command_instance T L name = inl d -> d_type d = CTest -> d_args d = [a] -> is_tl a = true ->
    ts <> [] -> Forall2 Pst ts ns ->
    exists Nf stE,
      steps T st (mk TIdentifier name :: mk TLeftParen v :: toks_tests ts) = Some stE /\ listf d a (at_of ca) ns Nf /\
      p_stack stE = Nf :: P1 :: rest /\ p_cstate stE = CArgs /\ p_expected stE = Some [TComma; TRightParen] /\
      p_brackets stE = BRParen :: p_brackets st /\ p_loaded stE = L /\ p_hash stE = p_hash st /\
      p_result stE = p_result st.
  Proof.
    intros name v d a ts ns st P rest P1 ca Es Hc Hp Hl E Hg Hty Ha Htl Hne HF.
    assert (Htw : twf d = true) by (eapply gci_twf; eauto).
    destruct (test_slot_facts d a Htw Ha (or_intror Htl)) as (_ & _ & _ & _ & _ & Hv).
    destruct (Hv Htl) as (_ & Hef).
    set (N := new_frame d (at_of ca)).
    set (stN := with_stack (N :: P1 :: rest) (with_expected (d_expected_first d) st)).
    pose proof (push_test st P rest P1 ca (mk TIdentifier name) d Es Hc Hp Hl E eq_refl Hg Hty) as P0. fold N in P0. fold stN in P0.
    pose proof (listf_new d a (at_of ca) Htw) as HlN. fold N in HlN.
    destruct (listf_facts d a (at_of ca) Htw Hty Ha Htl [] N HlN) as (_ & _ & _ & HincN).
    rewrite (cc_incomplete stN N (P1 :: rest) false eq_refl HincN) in P0.
    pose proof (lparen_step T stN (mk TLeftParen v) Hc Hef eq_refl) as PP.
    set (stP := with_expected (Some [TIdentifier]) (with_brackets (BRParen :: p_brackets stN) (with_expected None stN))) in PP.
    destruct (tests_loop d a (at_of ca) P1 rest Htw Hty Ha Htl ts ns HF Hne [] N stP HlN eq_refl Hc eq_refl Hl)
      as (Nf & stE & PE & LE & SE & CE & EE & VE).
    exists Nf, stE. cbn [steps]. rewrite P0, PP, PE.
    destruct VE as (VB & VL & VH & VR). unfold stP, stN in VB, VL, VH, VR. pcbn_in VB. pcbn_in VL. pcbn_in VH. pcbn_in VR.
    rewrite Hl in VL. auto 12.
  Qed.

  Lemma run_list : forall name d a ts ns,
    get_command_instance T L name = inl d -> d_type d = CTest -> d_args d = [a] -> is_tl a = true ->
    d_must_follow d = None -> ts <> [] ->
    Forall2 Pst ts ns ->
    Pst (GList name ts) (Node d [(a_name a, VTests ns)] [] [] []).
  Proof.
    intros name d a ts ns Hg Hty Ha Htl Hmf Hne HF st P rest P1 ca Es Hc Hp Hl HfP E.
    destruct (list_test_members name [40%N] d a ts ns st P rest P1 ca Es Hc Hp Hl E Hg Hty Ha Htl Hne HF)
      as (Nf & stE & PE & LE & SE & CE & EE & VB & VL & VH & VR).
    rewrite toks_test_list. cbn [kind_of]. rewrite !app_comm_cons, steps_app, PE. cbn [steps].
    set (st1 := with_brackets (p_brackets st) (with_expected None stE)).
    pose proof LE as (LfI & LfD & LfA & LfX & LfC & LfArgs).
    assert (PR : process T stE (mk TRightParen [41%N]) = leave Kup Nf (P1 :: rest) st1).
    { rewrite process_passes by (rewrite ?EE; first [discriminate|reflexivity]).
      rewrite m_command_eq. pcbn. rewrite CE, m_arguments_eq. cbn [t_kind mk on_false].
      unfold pop_bracket. pcbn. rewrite VB. cbn [bracket_eqb]. fold st1.
      unfold up. rewrite (SE : p_stack st1 = Nf :: P1 :: rest), LfD, Hmf. cbn [negb].
      unfold leave. change (p_expected st1) with (@None (list tkind)).
      destruct (up_loop (attach_into Nf P1) rest None) as [s' e']. reflexivity. }
    rewrite PR. exists Nf, st1.
    split; [reflexivity|]. split; [exact CE|].
    split; [unfold same_env, st1; pcbn; repeat split; congruence|].
    split; [intros _; reflexivity|]. split; [exact LfI|]. split; [exact LfA|].
    split.
    { unfold frame_node. rewrite LfD, LfArgs, LfX, LfC. cbn [app].
      destruct ns as [|n0 ns0]; [inversion HF; subst; congruence|reflexivity]. }
    split; [unfold is_test; rewrite LfD, Hty; reflexivity|discriminate].
  Qed.

  Theorem run_test : forall t n, wf_test t n -> Pst t n.
  Proof.
    fix IH 3. intros t n H. destruct H as [name d args am em H1 H2 H3 H4 H5 H6 H7 H8
                                           |name d a t' n' H1 H2 H3 H4 H5
                                           |name d a ts ns H1 H2 H3 H4 H5 H6 H7].
    - apply (run_simple name d args am em); assumption.
    - apply run_not; auto.
    - apply run_list; auto.
      clear H6. induction H7 as [|t0 n0 ts0 ns0 Hh Ht IHt]; constructor; [apply IH; exact Hh|exact IHt].
  Qed.

End Tests.

(* commands: `name args ;`, `name test { commands }` (if / elsif / anything with one test and a block) and
   `name { commands }` (else) *)
Inductive gcmd :=
| GAct (name : bytes) (args : list argument)
| GCtl (name : bytes) (t : gtest) (body : list gcmd)
| GElse (name : bytes) (body : list gcmd).

Lemma gcmd_ind' : forall P : gcmd -> Prop,
  (forall name args, P (GAct name args)) -> (forall name t body, Forall P body -> P (GCtl name t body)) ->
  (forall name body, Forall P body -> P (GElse name body)) -> forall c, P c.
Proof.
  intros P H1 H2 H3. fix IH 1. intros [name args|name t body|name body]; [apply H1|apply H2|apply H3];
    induction body as [|x r IHr]; constructor; first [apply IH|exact IHr].
Qed.

Definition tk_semi := mk TSemicolon [59%N].
Definition tk_lcb := mk TLeftCBracket [123%N].
Definition tk_rcb := mk TRightCBracket [125%N].

Fixpoint toks_cmd (c : gcmd) : list token :=
  match c with
  | GAct name args => mk TIdentifier name :: flat_map arg_toks args ++ [tk_semi]
  | GCtl name t body => mk TIdentifier name :: toks_test t ++ tk_lcb :: flat_map toks_cmd body ++ [tk_rcb]
  | GElse name body => mk TIdentifier name :: tk_lcb :: flat_map toks_cmd body ++ [tk_rcb]
  end.

Definition with_comments (n : node) (h : list bytes) : node :=
  Node (node_def n) (node_args n) (node_extra n) (node_children n) h.

Definition add_child (o : frame) (n : node) : frame :=
  mkFrame (f_def o) (f_args o) (f_extra o) (f_children o ++ [n]) (f_nextargpos o) (f_rargs o) (f_curarg o) (f_attach o).

(* where a finished command goes: the result list (top level, with the pending hash comments) or the
   children of the command that owns the block *)
Definition place := (list frame * list bytes * list node)%type.

Definition emit1 (p : place) (n : node) : place :=
  let '(S0, h, res) := p in
  match S0 with
  | [] => ([], [], res ++ [with_comments n h])
  | o :: r0 => (add_child o n :: r0, h, res)
  end.

Definition place_of (st : pstate) : place := (p_stack st, p_hash st, p_result st).

Definition owner_ok (S0 : list frame) : Prop :=
  match S0 with [] => True | o :: _ => d_accept_children (f_def o) = true /\ is_test o = false end.

Definition prev_name (p : place) : option bytes :=
  let '(S0, _, res) := p in
  option_map (fun n => d_name (node_def n))
             (match S0 with [] => last_opt res | o :: _ => last_opt (f_children o) end).

Definition follows_name (d : cmddef) (prev : option bytes) : bool :=
  match d_must_follow d with
  | None => true
  | Some mf => match prev with None => false | Some p => mem p mf end
  end.

Definition at_in (S0 : list frame) : attach := match S0 with [] => AtTop | _ => AtChild end.

(* Parser.__up, with its must_follow test read through follows_name / prev_name *)
Lemma up_eq : forall st cur rest, p_stack st = cur :: rest ->
  up st =
  if follows_name (f_def cur) (prev_name (rest, p_hash st, p_result st)) then
    match rest with
    | [] => MTrue (with_stack [] (with_hash [] (with_result (p_result st ++ [frame_node cur (p_hash st)]) st)))
    | parent :: rest' =>
        let '(s', e') := up_loop (attach_into cur parent) rest' (p_expected st) in
        MTrue (with_stack s' (with_expected e' st))
    end
  else MErr EMustFollow.
Proof.
  intros st cur rest Es. unfold up, follows_name, prev_name. rewrite Es.
  destruct (d_must_follow (f_def cur)); [|reflexivity].
  destruct rest as [|o r0]; [destruct (last_opt (p_result st))|destruct (last_opt (f_children o))]; cbn [option_map];
    try reflexivity; destruct (mem _ _); reflexivity.
Qed.

Lemma last_opt_snoc : forall A (l : list A) x, last_opt (l ++ [x]) = Some x.
Proof.
  induction l as [|y l IH]; intro x; [reflexivity|].
  cbn [app]. specialize (IH x). destruct (l ++ [x]) eqn:E; [destruct l; discriminate|]. exact IH.
Qed.

Lemma emit1_facts : forall p n,
  owner_ok (fst (fst p)) ->
  owner_ok (fst (fst (emit1 p n))) /\ prev_name (emit1 p n) = Some (d_name (node_def n)).
Proof.
  intros [[[|o r0] h] res] n Ho; cbn.
  - split; [exact I|]. rewrite last_opt_snoc. reflexivity.
  - split; [exact Ho|]. rewrite last_opt_snoc. reflexivity.
Qed.

Lemma up_close : forall st cur S0,
  p_stack st = cur :: S0 -> owner_ok S0 -> f_attach cur = at_in S0 ->
  follows_name (f_def cur) (prev_name (S0, p_hash st, p_result st)) = true ->
  exists st', up st = MTrue st' /\ p_cstate st' = p_cstate st /\ p_expected st' = p_expected st /\
              p_brackets st' = p_brackets st /\ p_loaded st' = p_loaded st /\
              place_of st' = emit1 (S0, p_hash st, p_result st) (frame_node cur []).
Proof.
  intros st cur S0 Es Ho Hat Hf. rewrite (up_eq st cur S0 Es), Hf.
  destruct S0 as [|o r0].
  - eexists. split; [reflexivity|]. pcbn. repeat (split; [reflexivity|]). reflexivity.
  - destruct Ho as (Ho1 & Ho2).
    assert (Ha : attach_into cur o = add_child o (frame_node cur [])).
    { unfold attach_into. rewrite Hat. reflexivity. }
    rewrite Ha, up_loop_eq.
    assert (Ht : is_test (add_child o (frame_node cur [])) = false) by exact Ho2.
    rewrite Ht. cbn [andb].
    eexists. split; [reflexivity|]. pcbn. repeat (split; [reflexivity|]). reflexivity.
Qed.

Lemma process_rcb : forall T st b t,
  p_cstate st = CNone -> p_expected st = None -> p_brackets st = BRCBracket :: b -> t_kind t = TRightCBracket ->
  process T st t = match up (with_brackets b st) with MTrue st2 => MTrue (with_cstate CNone st2) | r => r end.
Proof.
  intros T st b t Hc He Hb Hk. rewrite process_eq, Hk. unfold expect_then. rewrite He, m_command_eq, Hc.
  unfold m_command_none, pop_bracket. rewrite Hk, Hb. reflexivity.
Qed.

Lemma with_loaded_id : forall st, with_loaded (p_loaded st) st = st.
Proof. intros []; reflexivity. Qed.

Fixpoint add_children (o : frame) (ns : list node) : frame :=
  match ns with [] => o | n :: r => add_children (add_child o n) r end.

Lemma fold_emit_nested : forall ns o r0 h res,
  fold_left emit1 ns (o :: r0, h, res) = (add_children o ns :: r0, h, res).
Proof. induction ns as [|n ns IH]; intros; cbn [fold_left add_children emit1]; [reflexivity|apply IH]. Qed.

Lemma add_children_facts : forall ns o,
  f_def (add_children o ns) = f_def o /\ f_args (add_children o ns) = f_args o /\
  f_extra (add_children o ns) = f_extra o /\ f_children (add_children o ns) = f_children o ++ ns /\
  f_attach (add_children o ns) = f_attach o.
Proof.
  induction ns as [|n ns IH]; intro o; cbn [add_children].
  - rewrite app_nil_r. auto.
  - destruct (IH (add_child o n)) as (A & B & C & D & E). cbn in *. rewrite <- app_assoc in D. auto.
Qed.

Section Cmds.
  Variable T : tables.
  Hypothesis HT : twf_tables T = true.

  Definition ready (st : pstate) : Prop :=
    p_cstate st = CNone /\ p_expected st = None /\ owner_ok (p_stack st).

  (* the effect of a `require` (complete_cb) on the loaded extensions, as a relation *)
  Definition cb_ok (d : cmddef) (am : list (bytes * aval)) (L L' : list bytes) : Prop :=
    match d_complete d with
    | HNone => L' = L
    | HRequire =>
        match assoc_get capabilities_key am with
        | None => L' = L
        | Some (VList l) => L' = load_exts l L
        | Some (VStr s) => L' = load_exts [s] L
        | Some _ => False
        end
    end.

  Lemma complete_cb_ok : forall st f rest L',
    p_stack st = f :: rest -> cb_ok (f_def f) (f_args f) (p_loaded st) L' ->
    complete_cb st = MTrue (with_loaded L' st).
  Proof.
    intros st f rest L' Es H. unfold complete_cb, cb_ok in *. rewrite Es.
    destruct (d_complete (f_def f)); [subst L'; rewrite with_loaded_id; reflexivity|].
    destruct (assoc_get capabilities_key (f_args f)) as [[s|l|n|ns]|]; try contradiction; subst L';
      rewrite ?with_loaded_id; reflexivity.
  Qed.

  (* wf_cmd loaded-before previous-name command node loaded-after *)
  Inductive wf_cmd : list bytes -> option bytes -> gcmd -> node -> list bytes -> Prop :=
  | wf_act : forall L prev name d args am em L',
      get_command_instance T L name = inl d -> d_type d <> CTest -> d_accept_children d = false ->
      wf_def d = true -> fixed_arity d = true -> Forall arg_ok args ->
      legal d L args = LComplete am em ->
      follows_name d prev = true -> cb_ok d am L L' ->
      wf_cmd L prev (GAct name args) (Node d am em [] []) L'
  | wf_ctl : forall L prev name d a t nt body ns L',
      get_command_instance T L name = inl d -> d_type d = CControl -> d_accept_children d = true ->
      d_args d = [a] -> is_t1 a = true ->
      follows_name d prev = true ->
      wf_test T L t nt -> wf_cmds L None body ns L' ->
      wf_cmd L prev (GCtl name t body) (Node d [(a_name a, VTest nt)] [] ns []) L'
  | wf_else : forall L prev name d body ns L',
      get_command_instance T L name = inl d -> d_type d = CControl -> d_accept_children d = true ->
      d_args d = [] ->
      follows_name d prev = true ->
      wf_cmds L None body ns L' ->
      wf_cmd L prev (GElse name body) (Node d [] [] ns []) L'
  with wf_cmds : list bytes -> option bytes -> list gcmd -> list node -> list bytes -> Prop :=
  | wf_nil : forall L prev, wf_cmds L prev [] [] L
  | wf_cons : forall L prev c n L1 cs ns L2,
      wf_cmd L prev c n L1 -> wf_cmds L1 (Some (d_name (node_def n))) cs ns L2 ->
      wf_cmds L prev (c :: cs) (n :: ns) L2.

  Scheme wf_cmd_mut := Minimality for wf_cmd Sort Prop
    with wf_cmds_mut := Minimality for wf_cmds Sort Prop.

  Definition Pcmd (L : list bytes) (prev : option bytes) (c : gcmd) (n : node) (L' : list bytes) : Prop :=
    forall st, ready st -> p_loaded st = L -> prev_name (place_of st) = prev ->
      exists st', steps T st (toks_cmd c) = Some st' /\ p_cstate st' = CNone /\ p_expected st' = None /\
                  p_loaded st' = L' /\ p_brackets st' = p_brackets st /\
                  place_of st' = emit1 (place_of st) n.

  Definition Pcmds (L : list bytes) (prev : option bytes) (cs : list gcmd) (ns : list node) (L' : list bytes) : Prop :=
    forall st, ready st -> p_loaded st = L -> prev_name (place_of st) = prev ->
      exists st', steps T st (flat_map toks_cmd cs) = Some st' /\ p_cstate st' = CNone /\ p_expected st' = None /\
                  p_loaded st' = L' /\ p_brackets st' = p_brackets st /\
                  place_of st' = fold_left emit1 ns (place_of st).

  Lemma push_cmd : forall st t d,
    ready st -> t_kind t = TIdentifier -> get_command_instance T (p_loaded st) (t_val t) = inl d -> d_type d <> CTest ->
    process T st t =
    MTrue (with_cstate CArgs (with_stack (new_frame d (at_in (p_stack st)) :: p_stack st)
             (if match d_type d with CControl => d_accept_children d && has_arguments d | _ => false end
              then with_expected (Some [TIdentifier]) st else st))).
  Proof.
    intros st t d (Hc & He & Ho) Hk Hg Hty.
    rewrite process_eq, Hk. unfold expect_then. rewrite He, m_command_eq, Hc. unfold m_command_none. rewrite Hk, Hg.
    destruct (p_stack st) as [|o r0] eqn:Es.
    - destruct (d_type d); try congruence; cbn [at_in]; [destruct (d_accept_children d && has_arguments d)|]; reflexivity.
    - destruct Ho as (Ho1 & _). rewrite Ho1.
      destruct (d_type d); try congruence; cbn [at_in]; [destruct (d_accept_children d && has_arguments d)|]; reflexivity.
  Qed.

  Lemma run_act : forall L prev name d args am em L',
    get_command_instance T L name = inl d -> d_type d <> CTest -> d_accept_children d = false ->
    wf_def d = true -> fixed_arity d = true -> Forall arg_ok args ->
    legal d L args = LComplete am em ->
    follows_name d prev = true -> cb_ok d am L L' ->
    Pcmd L prev (GAct name args) (Node d am em [] []) L'.
  Proof.
    intros L prev name d args am em L' Hg Hty Hch Hwf Hfa Hall Hleg Hfol Hcb st Hr Hl Hprev.
    pose proof Hr as (Hc & He & Ho).
    assert (Htw : twf d = true) by (eapply gci_twf; eauto).
    set (S0 := p_stack st) in *.
    set (N := new_frame d (at_in S0)).
    set (st1 := with_cstate CArgs (with_stack (N :: S0) st)).
    assert (P0 : process T st (mk TIdentifier name) = MTrue st1).
    { rewrite (push_cmd st (mk TIdentifier name) d Hr eq_refl); [|rewrite Hl; exact Hg|exact Hty]. rewrite Hch. fold S0.
      destruct (d_type d); reflexivity. }
    destruct (legal_complete_feed d (at_in S0) L args Hwf Hfa Hall am em Hleg) as (fN & Hfeed & Hcomp & Ham & Hem).
    fold N in Hfeed. rewrite <- Hl in Hfeed.
    assert (Hnb : is_action N || (is_control N && negb (d_accept_children (f_def N))) = true).
    { unfold is_action, is_control, N. cbn. rewrite Hch. destruct (d_type d); try reflexivity. congruence. }
    destruct (feed_steps_no_block T args st1 N S0 fN eq_refl eq_refl He (fi_new_frame _ _ Htw) Hnb Hall Hfeed)
      as (st2 & P2 & S2 & E2 & V2 & _ & D2 & A2 & K2).
    change (p_cstate st2 = CArgs /\ same_env st st2) in V2. destruct V2 as (C2 & B2 & L2 & H2 & R2).
    assert (HtF : is_test fN = false).
    { unfold is_test. rewrite D2. unfold N. cbn. destruct (d_type d); congruence. }
    assert (HchF : d_accept_children (f_def fN) = false) by (rewrite D2; exact Hch).
    cbn [toks_cmd steps]. rewrite P0, steps_app, P2. cbn [steps].
    rewrite (process_semicolon T st2 fN S0 tk_semi S2 C2 ltac:(destruct E2 as [E|(E & _)]; rewrite E; [exact I|reflexivity])
               eq_refl HtF HchF (complete_no_pending fN Hcomp)).
    set (st3 := with_cstate CNone (with_expected None st2)).
    rewrite (complete_cb_ok st3 fN S0 L' S2) by (unfold st3; pcbn; rewrite D2, Ham, L2, Hl; exact Hcb).
    set (st4 := with_loaded L' st3).
    assert (S4 : p_stack st4 = fN :: S0) by (unfold st4, st3; pcbn; exact S2).
    assert (Hf4 : follows_name (f_def fN) (prev_name (S0, p_hash st4, p_result st4)) = true).
    { rewrite D2. unfold st4, st3. pcbn. rewrite H2, R2. unfold place_of in Hprev. fold S0 in Hprev. cbn [f_def N new_frame]. rewrite Hprev. exact Hfol. }
    destruct (up_close st4 fN S0 S4 Ho ltac:(rewrite A2; reflexivity) Hf4) as (st' & U & U1 & U2 & U3 & U4 & U5).
    rewrite U. exists st'. split; [reflexivity|].
    split; [rewrite U1; reflexivity|]. split; [rewrite U2; reflexivity|]. split; [rewrite U4; reflexivity|].
    split; [rewrite U3; unfold st4, st3; pcbn; exact B2|].
    rewrite U5. unfold st4, st3, place_of. pcbn. fold S0. rewrite H2, R2. unfold frame_node. rewrite D2, Ham, Hem, K2. reflexivity.
  Qed.

  Lemma open_block : forall st C S0 t,
    p_stack st = C :: S0 -> p_cstate st = CArgs -> passes (p_expected st) TLeftCBracket -> t_kind t = TLeftCBracket ->
    is_control C = true -> d_accept_children (f_def C) = true -> iscomplete C None = true ->
    twf (f_def C) = true -> f_children C = [] ->
    let stD := with_cstate CNone (with_brackets (BRCBracket :: p_brackets st) (with_expected None st)) in
    process T st t = MTrue stD /\ ready stD /\ prev_name (place_of stD) = None.
  Proof.
    intros st C S0 t Es Hc Hp Hk Hctl Hch Hcomp Htw Hkids stD.
    split.
    { rewrite process_passes by (rewrite Hk; first [discriminate|exact Hp]).
      rewrite m_command_eq. pcbn. rewrite Hc, m_arguments_eq, Hk. unfold m_arguments_default, m_argument. rewrite Hk. pcbn.
      rewrite Es, (twf_children_det _ Htw Hch). unfold on_false, after_false. rewrite Hk. pcbn. rewrite Es, Hctl, Hch, Hcomp.
      reflexivity. }
    unfold ready, place_of, stD. pcbn. rewrite Es. cbn. rewrite Hkids.
    split; [|reflexivity]. split; [reflexivity|]. split; [reflexivity|]. split; [exact Hch|apply is_control_not_test; exact Hctl].
  Qed.

  Lemma run_block : forall L prev body ns L' st C S0,
    Pcmds L None body ns L' ->
    p_stack st = C :: S0 -> p_cstate st = CArgs -> passes (p_expected st) TLeftCBracket -> p_loaded st = L ->
    owner_ok S0 -> prev_name (S0, p_hash st, p_result st) = prev ->
    is_control C = true -> d_accept_children (f_def C) = true -> iscomplete C None = true ->
    twf (f_def C) = true -> f_children C = [] -> f_attach C = at_in S0 ->
    follows_name (f_def C) prev = true ->
    exists st', steps T st (tk_lcb :: flat_map toks_cmd body ++ [tk_rcb]) = Some st' /\
                p_cstate st' = CNone /\ p_expected st' = None /\ p_loaded st' = L' /\ p_brackets st' = p_brackets st /\
                place_of st' = emit1 (S0, p_hash st, p_result st)
                                     (Node (f_def C) (f_args C) (f_extra C) ns []).
  Proof.
    intros L prev body ns L' st C S0 IH Es Hc Hp Hl Ho Hprev Hctl Hch Hcomp Htw Hkids Hat Hfol.
    destruct (open_block st C S0 tk_lcb Es Hc Hp eq_refl Hctl Hch Hcomp Htw Hkids) as (PD & HrD & HpD).
    set (stD := with_cstate CNone (with_brackets (BRCBracket :: p_brackets st) (with_expected None st))) in *.
    cbn [steps]. rewrite PD.
    destruct (IH stD HrD Hl HpD) as (stE & PE & CE & EE & LE & BE & PLE).
    rewrite steps_app, PE. cbn [steps].
    rewrite (process_rcb T stE (p_brackets st) tk_rcb CE EE BE eq_refl).
    unfold place_of in PLE. replace (p_stack stD) with (C :: S0) in PLE by (unfold stD; pcbn; auto).
    rewrite fold_emit_nested in PLE. inversion PLE as [[SE HE RE]].
    set (C' := add_children C ns) in *.
    destruct (add_children_facts ns C) as (F1 & F2 & F3 & F4 & F5). fold C' in F1, F2, F3, F4, F5.
    set (stF := with_brackets (p_brackets st) stE).
    assert (HfF : follows_name (f_def C') (prev_name (S0, p_hash stF, p_result stF)) = true).
    { rewrite F1. unfold stF. pcbn. rewrite HE, RE. unfold stD. pcbn. rewrite Hprev. exact Hfol. }
    destruct (up_close stF C' S0 SE Ho ltac:(congruence) HfF) as (st' & U & U1 & U2 & U3 & U4 & U5).
    rewrite U. eexists. split; [reflexivity|]. pcbn.
    split; [reflexivity|]. split; [rewrite U2; exact EE|].
    split; [rewrite U4; exact LE|].
    split; [rewrite U3; reflexivity|].
    unfold place_of in *. pcbn. rewrite U5. unfold stF. pcbn. rewrite HE, RE. unfold stD. pcbn.
    unfold frame_node. rewrite F1, F2, F3, F4, Hkids. reflexivity.
  Qed.

  Lemma ctl_after_test : forall L name d a t nt st,
    get_command_instance T L name = inl d -> d_type d = CControl -> d_accept_children d = true ->
    d_args d = [a] -> is_t1 a = true -> Pst T L t nt -> ready st -> p_loaded st = L ->
    exists stB C2,
      steps T st (mk TIdentifier name :: toks_test t) = Some stB /\
      p_stack stB = C2 :: p_stack st /\ p_cstate stB = CArgs /\
      p_expected stB = (match kind_of t with Kcc => Some [TLeftCBracket] | Kup => None end) /\ same_env st stB /\
      t1f d a (at_in (p_stack st)) (VTest nt) C2.
  Proof.
    intros L name d a t nt st Hg Hty Hch Ha Ht1 IHt Hr Hl.
    assert (Htw : twf d = true) by (eapply gci_twf; eauto).
    destruct (test_slot_facts d a Htw Ha (or_introl Ht1)) as (_ & _ & _ & Hts & _).
    set (S0 := p_stack st) in *.
    set (C := new_frame d (at_in S0)).
    set (stC := with_cstate CArgs (with_stack (C :: S0) (with_expected (Some [TIdentifier]) st))).
    assert (P0 : process T st (mk TIdentifier name) = MTrue stC).
    { rewrite (push_cmd st (mk TIdentifier name) d Hr eq_refl); [|rewrite Hl; exact Hg|congruence]. rewrite Hty, Hch. unfold has_arguments.
      rewrite Ha. reflexivity. }
    destruct (cna_t1_new L d (at_in S0) a Htw Ha Ht1) as (C1 & EC & HC1). fold C in EC.
    destruct (IHt stC C S0 C1 a eq_refl eq_refl eq_refl Hl (fi_new_frame _ _ Htw) EC)
      as (F & stX & PX & CX & VX & UX & FX & AX & NX & TX & KX).
    rewrite (at_of_t1 a Ht1) in AX.
    pose proof (t1_attach d a (at_in S0) C1 F Hts HC1 AX) as HC2. rewrite NX in HC2.
    pose proof HC2 as (_ & G2 & _ & G4 & _).
    assert (Hctl : is_control (attach_into F C1) = true) by (unfold is_control; rewrite G2, Hty; reflexivity).
    eexists. exists (attach_into F C1).
    split; [cbn [steps]; rewrite P0, PX, (leave_control _ F C1 S0 stX Hctl G4); reflexivity|].
    pcbn. split; [reflexivity|]. split; [exact CX|]. split; [destruct (kind_of t); reflexivity|]. split; [|exact HC2].
    apply (same_env_trans st stC); [unfold same_env, stC; pcbn; auto|].
    apply (same_env_trans _ _ _ VX). unfold same_env; pcbn; auto.
  Qed.

  Lemma run_ctl : forall L prev name d a t nt body ns L',
    get_command_instance T L name = inl d -> d_type d = CControl -> d_accept_children d = true ->
    d_args d = [a] -> is_t1 a = true ->
    follows_name d prev = true -> Pst T L t nt -> Pcmds L None body ns L' ->
    Pcmd L prev (GCtl name t body) (Node d [(a_name a, VTest nt)] [] ns []) L'.
  Proof.
    intros L prev name d a t nt body ns L' Hg Hty Hch Ha Ht1 Hfol IHt IHb st Hr Hl Hprev.
    destruct (ctl_after_test L name d a t nt st Hg Hty Hch Ha Ht1 IHt Hr Hl)
      as (stB & C2 & PB & SB & CB & EB & (V1 & V2 & V3 & V4) & G1 & G2 & G3 & G4 & G5 & G6 & G7).
    destruct (run_block L prev body ns L' stB C2 (p_stack st) IHb SB CB ltac:(rewrite EB; destruct (kind_of t); [reflexivity|exact I])
                        ltac:(congruence) (proj2 (proj2 Hr)) ltac:(rewrite V3, V4; exact Hprev)
                        ltac:(unfold is_control; rewrite G2, Hty; reflexivity) ltac:(rewrite G2; exact Hch) G4
                        ltac:(rewrite G2; eapply gci_twf; eauto) G7 G3 ltac:(rewrite G2; exact Hfol))
      as (st' & PS & R1 & R2 & R3 & R4 & R5).
    exists st'. cbn [toks_cmd]. rewrite app_comm_cons, steps_app, PB.
    split; [exact PS|]. split; [exact R1|]. split; [exact R2|]. split; [exact R3|]. split; [congruence|].
    rewrite R5, V3, V4, G2, G5, G6. reflexivity.
  Qed.

  Lemma else_after_name : forall L name d st,
    get_command_instance T L name = inl d -> d_type d = CControl -> d_accept_children d = true ->
    d_args d = [] -> ready st -> p_loaded st = L ->
    let C := new_frame d (at_in (p_stack st)) in
    process T st (mk TIdentifier name) = MTrue (with_cstate CArgs (with_stack (C :: p_stack st) st)) /\
    is_control C = true /\ iscomplete C None = true /\ twf d = true.
  Proof.
    intros L name d st Hg Hty Hch Ha Hr Hl C.
    assert (Htw : twf d = true) by (eapply gci_twf; eauto).
    split; [rewrite (push_cmd st (mk TIdentifier name) d Hr eq_refl); [|rewrite Hl; exact Hg|congruence]; rewrite Hty, Hch; unfold has_arguments;
            rewrite Ha; reflexivity|].
    split; [unfold is_control, C; cbn; rewrite Hty; reflexivity|]. split; [|exact Htw].
    assert (Hnts : has_test_slot d = false) by (unfold has_test_slot; rewrite Ha; reflexivity).
    unfold iscomplete, C. cbn. rewrite (twf_no_test_slot d Htw Hnts). unfold required_args. rewrite Ha. reflexivity.
  Qed.

  Lemma run_else : forall L prev name d body ns L',
    get_command_instance T L name = inl d -> d_type d = CControl -> d_accept_children d = true ->
    d_args d = [] ->
    follows_name d prev = true -> Pcmds L None body ns L' ->
    Pcmd L prev (GElse name body) (Node d [] [] ns []) L'.
  Proof.
    intros L prev name d body ns L' Hg Hty Hch Ha Hfol IHb st Hr Hl Hprev.
    destruct (else_after_name L name d st Hg Hty Hch Ha Hr Hl) as (P0 & Hctl & Hcomp & Htw).
    destruct Hr as (_ & He & Ho).
    set (C := new_frame d (at_in (p_stack st))) in *.
    destruct (run_block L prev body ns L' (with_cstate CArgs (with_stack (C :: p_stack st) st)) C (p_stack st)
                        IHb eq_refl eq_refl ltac:(pcbn; rewrite He; exact I)
                        Hl Ho Hprev Hctl Hch Hcomp Htw eq_refl eq_refl Hfol)
      as (st' & PS & R1 & R2 & R3 & R4 & R5).
    exists st'. cbn [toks_cmd steps]. rewrite P0. auto 8.
  Qed.

  Theorem run_cmds : forall L prev cs ns L', wf_cmds L prev cs ns L' -> Pcmds L prev cs ns L'.
  Proof.
    apply (wf_cmds_mut Pcmd Pcmds).
    - intros. eapply run_act; eauto.
    - intros L prev name d a t nt body ns L' Hg Hty Hch Ha Ht1 Hfol Hwt _ IHb.
      apply run_ctl; auto. apply run_test; auto.
    - intros L prev name d body ns L' Hg Hty Hch Ha Hfol _ IHb. apply run_else; auto.
    - intros L prev st Hr Hl Hp. exists st. destruct Hr as (A & B & _). cbn [flat_map steps fold_left]. repeat (split; [solve [auto]|]). reflexivity.
    - intros L prev c n L1 cs ns L2 _ IHc _ IHcs st Hr Hl Hp.
      destruct (IHc st Hr Hl Hp) as (st1 & P1 & C1 & E1 & L1' & B1 & PL1).
      destruct (emit1_facts (place_of st) n (proj2 (proj2 Hr))) as (O1 & N1).
      rewrite <- PL1 in O1, N1.
      assert (Hr1 : ready st1) by (split; [exact C1|]; split; [exact E1|exact O1]).
      destruct (IHcs st1 Hr1 L1' N1) as (st2 & P2 & C2 & E2 & L2' & B2 & PL2).
      exists st2. cbn [flat_map]. rewrite steps_app, P1.
      split; [exact P2|]. split; [exact C2|]. split; [exact E2|]. split; [exact L2'|]. split; [congruence|].
      cbn [fold_left]. rewrite <- PL1. exact PL2.
  Qed.

  Lemma run_cmd : forall L prev c n L', wf_cmd L prev c n L' -> Pcmd L prev c n L'.
  Proof.
    intros L prev c n L' H st Hr Hl Hp.
    destruct (run_cmds L prev [c] [n] L' (wf_cons _ _ _ _ _ _ _ _ H (wf_nil _ _)) st Hr Hl Hp) as (st' & S & R).
    cbn [flat_map] in S. rewrite app_nil_r in S. exists st'. auto.
  Qed.
End Cmds.

Lemma wf_cmds_comments : forall T L prev cs ns L',
  wf_cmds T L prev cs ns L' -> Forall (fun n => node_comments n = []) ns.
Proof.
  intros T L prev cs ns L' H. induction H as [|L prev c n L1 cs ns L2 Hc Hcs IH]; constructor; [|exact IH].
  inversion Hc; reflexivity.
Qed.

Lemma fold_emit1_top : forall ns res,
  fold_left emit1 ns (@nil frame, @nil bytes, res) = ([], [], res ++ map (fun n => with_comments n []) ns).
Proof.
  induction ns as [|n ns IH]; intro res; cbn [fold_left map]; [rewrite app_nil_r; reflexivity|].
  cbn [emit1]. rewrite IH, <- app_assoc. reflexivity.
Qed.

Lemma fold_emit_top : forall ns res,
  Forall (fun n => node_comments n = []) ns -> fold_left emit1 ns ([], [], res) = ([], [], res ++ ns).
Proof.
  intros ns res H. rewrite fold_emit1_top. do 2 f_equal.
  induction H as [|[d a e k c] ns Hn _ IH]; [reflexivity|]. cbn in Hn. subst c. cbn [map]. rewrite IH. reflexivity.
Qed.

(* C01 (completeness) + C03 (faithfulness), whole scripts: the token sequence of any well-formed sequence of
   commands -- actions with their arguments, `require` extending the set of loaded extensions for what
   follows, controls with tests (simple tests, one-test tests, test lists, nested to any depth) and blocks
   nested to any depth, elsif / else after the commands they must follow -- is accepted, and the resulting
   tree is exactly the one the grammar derivation describes *)
Theorem script_complete : forall T cs ns L',
  twf_tables T = true -> wf_cmds T [] None cs ns L' ->
  exists st', steps T p_init (flat_map toks_cmd cs) = Some st' /\
              p_stack st' = [] /\ p_expected st' = None /\ p_brackets st' = [] /\ p_result st' = ns /\
              p_loaded st' = L'.
Proof.
  intros T cs ns L' HT H.
  destruct (run_cmds T HT [] None cs ns L' H p_init) as (st' & P & C & E & Ld & B & PL).
  - unfold ready, p_init. cbn. auto.
  - reflexivity.
  - reflexivity.
  - exists st'. unfold place_of in PL. cbn [p_init p_stack p_hash p_result] in PL.
    rewrite (fold_emit_top ns [] (wf_cmds_comments _ _ _ _ _ _ H)) in PL. injection PL as S1 H1 R1.
    auto 12.
Qed.

Theorem parse_script : forall T text cs ns L',
  twf_tables T = true ->
  snd (lex text) = None ->
  map strip_pos (fst (lex text)) = flat_map toks_cmd cs ->
  wf_cmds T [] None cs ns L' ->
  parse T text = Accept ns.
Proof.
  intros T text cs ns L' HT Herr Htoks H.
  destruct (script_complete T cs ns L' HT H) as (st' & Hs & S1 & E1 & B1 & R1 & _).
  rewrite <- Htoks in Hs. destruct (parse_of_steps T text st' Hs Herr) as (ll & ->).
  unfold finish. rewrite B1, E1, S1, R1. reflexivity.
Qed.

(* hash comments before top-level commands (the form FiltersSet.tosieve writes: "# Filter: name") *)

Definition ctoks (cms : list bytes) : list token := map (mk THashComment) cms.

Definition toks_top (x : list bytes * gcmd) : list token := ctoks (fst x) ++ toks_cmd (snd x).

Lemma with_hash_id : forall st, with_hash (p_hash st) st = st.
Proof. intros []; reflexivity. Qed.

Lemma steps_comments : forall T cms st,
  steps T st (ctoks cms) = Some (with_hash (p_hash st ++ map strip_ws cms) st).
Proof.
  intros T. induction cms as [|c r IH]; intro st; cbn [ctoks map steps].
  - rewrite app_nil_r, with_hash_id. reflexivity.
  - rewrite process_eq. cbn [t_kind t_val mk]. fold (ctoks r). rewrite IH. pcbn. rewrite <- app_assoc. reflexivity.
Qed.

(* commented scripts: every top-level command may be preceded by hash comments; they end up, stripped, in the
   comments of that command's node *)
Inductive wf_tops (T : tables) : list bytes -> option bytes -> list (list bytes * gcmd) -> list node -> list bytes -> Prop :=
| wt_nil : forall L prev, wf_tops T L prev [] [] L
| wt_cons : forall L prev cms c n L1 rest ns L2,
    wf_cmd T L prev c n L1 -> wf_tops T L1 (Some (d_name (node_def n))) rest ns L2 ->
    wf_tops T L prev ((cms, c) :: rest) (with_comments n (map strip_ws cms) :: ns) L2.

Theorem commented_script_complete : forall T tops ns L L' prev st,
  twf_tables T = true -> wf_tops T L prev tops ns L' ->
  p_cstate st = CNone -> p_expected st = None -> p_stack st = [] -> p_hash st = [] -> p_loaded st = L ->
  prev_name (place_of st) = prev ->
  exists st', steps T st (flat_map toks_top tops) = Some st' /\
              p_cstate st' = CNone /\ p_stack st' = [] /\ p_expected st' = None /\ p_brackets st' = p_brackets st /\
              p_hash st' = [] /\ p_result st' = p_result st ++ ns /\ p_loaded st' = L'.
Proof.
  intros T tops ns L L' prev st HT H. revert st.
  induction H as [L prev|L prev cms c n L1 rest ns L2 Hc Hr IH]; intros st Hcs He Hs Hh Hl Hp.
  - exists st. cbn [flat_map steps]. rewrite app_nil_r. auto 10.
  - cbn [flat_map]. unfold toks_top at 1. cbn [fst snd]. rewrite <- app_assoc, steps_app, steps_comments.
    set (st0 := with_hash (p_hash st ++ map strip_ws cms) st).
    destruct (run_cmd T HT L prev c n L1 Hc st0) as (st1 & P1 & C1 & E1 & Ld1 & B1 & PL1).
    + unfold ready, st0. pcbn. rewrite Hs. split; [exact Hcs|]. split; [exact He|exact I].
    + unfold st0. pcbn. exact Hl.
    + unfold place_of, st0 in *. pcbn. rewrite Hs in *. exact Hp.
    + rewrite steps_app, P1.
      unfold place_of, st0 in PL1. pcbn_in PL1. rewrite Hs, Hh in PL1. cbn [emit1 app] in PL1.
      injection PL1 as S1 H1 R1.
      destruct (IH st1 C1 E1 S1 H1 Ld1) as (st2 & P2 & C2 & S2 & E2 & B2 & H2 & R2 & L2').
      { unfold place_of. rewrite S1, R1. cbn [prev_name]. rewrite last_opt_snoc. destruct n; reflexivity. }
      exists st2. split; [exact P2|]. split; [exact C2|]. split; [exact S2|]. split; [exact E2|].
      split; [rewrite B2, B1; unfold st0; pcbn; reflexivity|]. split; [exact H2|]. split; [|exact L2'].
      rewrite R2, R1. unfold st0. pcbn. rewrite <- app_assoc. reflexivity.
Qed.

Theorem parse_commented_script : forall T text tops ns L',
  twf_tables T = true ->
  snd (lex text) = None ->
  map strip_pos (fst (lex text)) = flat_map toks_top tops ->
  wf_tops T [] None tops ns L' ->
  parse T text = Accept ns.
Proof.
  intros T text tops ns L' HT Herr Htoks H.
  destruct (commented_script_complete T tops ns [] L' None p_init HT H eq_refl eq_refl eq_refl eq_refl eq_refl eq_refl)
    as (st' & Hs & C1 & S1 & E1 & B1 & H1 & R1 & _).
  rewrite <- Htoks in Hs. destruct (parse_of_steps T text st' Hs Herr) as (ll & ->).
  unfold finish. rewrite B1, E1, S1, R1. reflexivity.
Qed.

Print Assumptions run_args_gen.
Print Assumptions run_test.
Print Assumptions run_cmds.
Print Assumptions parse_script.
Print Assumptions parse_commented_script.
