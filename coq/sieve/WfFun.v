(* WfFun.v — the tree of a script of the grammar is determined by the script: wf_test / wf_cmd / wf_cmds are
   functional in the node (and in the extensions loaded afterwards). *)
From Coq Require Import List NArith Bool Arith Lia.
From SV Require Import lib.Bytes sieve.Lexer sieve.Tables sieve.ArgCheck sieve.ArgSpec sieve.Machine
  sieve.CompleteFacts sieve.CompleteTree.
Import ListNotations.
Local Close Scope N_scope.

Lemma wf_test_fun : forall T L t n n', wf_test T L t n -> wf_test T L t n' -> n = n'.
Proof.
  intros T L. fix IH 1. intros t n n' H H'. destruct t as [name args|name t0|name ts].
  - inversion H as [nm d a am em Hg _ _ _ _ _ _ Hl| |]; subst.
    inversion H' as [nm' d' a' am' em' Hg' _ _ _ _ _ _ Hl'| |]; subst.
    rewrite Hg in Hg'. injection Hg' as <-. rewrite Hl in Hl'. injection Hl' as <- <-. reflexivity.
  - inversion H as [|nm d a t1 n1 Hg _ Ha _ Ht|]; subst.
    inversion H' as [|nm' d' a' t1' n1' Hg' _ Ha' _ Ht'|]; subst.
    rewrite Hg in Hg'. injection Hg' as <-. rewrite Ha in Ha'. injection Ha' as <-.
    rewrite (IH t0 n1 n1' Ht Ht'). reflexivity.
  - inversion H as [| |nm d a l ns Hg _ Ha _ _ _ Hf]; subst.
    inversion H' as [| |nm' d' a' l' ns' Hg' _ Ha' _ _ _ Hf']; subst.
    rewrite Hg in Hg'. injection Hg' as <-. rewrite Ha in Ha'. injection Ha' as <-.
    assert (E : ns = ns').
    { clear - IH Hf Hf'. revert ns ns' Hf Hf'. induction ts as [|t ts IHts]; intros ns ns' Hf Hf';
        inversion Hf; subst; inversion Hf'; subst; [reflexivity|].
      f_equal; [apply (IH t); assumption|apply IHts; assumption]. }
    rewrite E. reflexivity.
Qed.

Lemma cb_ok_fun : forall d am L L1 L2, cb_ok d am L L1 -> cb_ok d am L L2 -> L1 = L2.
Proof.
  intros d am L L1 L2 H1 H2. unfold cb_ok in *. destruct (d_complete d); [congruence|].
  destruct (assoc_get capabilities_key am) as [[s|l|n|ns]|]; try contradiction; congruence.
Qed.

Combined Scheme wf_cmd_cmds_mut from wf_cmd_mut, wf_cmds_mut.

Lemma wf_fun : forall T,
  (forall L prev c n L1, wf_cmd T L prev c n L1 ->
     forall n' L1', wf_cmd T L prev c n' L1' -> n = n' /\ L1 = L1') /\
  (forall L prev cs ns L1, wf_cmds T L prev cs ns L1 ->
     forall ns' L1', wf_cmds T L prev cs ns' L1' -> ns = ns' /\ L1 = L1').
Proof.
  intro T. apply wf_cmd_cmds_mut.
  - intros L prev name d args am em L' Hg _ _ _ _ _ Hl _ Hcb n' L1' H'.
    inversion H' as [L0 p0 nm d' a' am' em' L0' Hg' _ _ _ _ _ Hl' _ Hcb'| |]; subst.
    rewrite Hg in Hg'. injection Hg' as <-. rewrite Hl in Hl'. injection Hl' as <- <-.
    split; [reflexivity|apply (cb_ok_fun _ _ _ _ _ Hcb Hcb')].
  - intros L prev name d a t nt body ns L' Hg _ _ Ha _ _ Ht _ IHb n' L1' H'.
    inversion H' as [|L0 p0 nm d' a' t0' nt' b' ns' L0' Hg' _ _ Ha' _ _ Ht' Hb'|]; subst.
    rewrite Hg in Hg'. injection Hg' as <-. rewrite Ha in Ha'. injection Ha' as <-.
    rewrite (wf_test_fun T L t nt nt' Ht Ht'). destruct (IHb ns' L1' Hb') as [<- <-]. auto.
  - intros L prev name d body ns L' Hg _ _ _ _ _ IHb n' L1' H'.
    inversion H' as [| |L0 p0 nm d' b' ns' L0' Hg' _ _ _ _ Hb']; subst.
    rewrite Hg in Hg'. injection Hg' as <-. destruct (IHb ns' L1' Hb') as [<- <-]. auto.
  - intros L prev ns' L1' H'. inversion H'; auto.
  - intros L prev c n L1 cs ns L2 _ IHc _ IHcs ns' L2' H'.
    inversion H' as [|L0 p0 c0 n0 M cs0 ns0 L0' Hc' Hcs']; subst.
    destruct (IHc n0 M Hc') as [<- <-]. destruct (IHcs ns0 L2' Hcs') as [<- <-]. auto.
Qed.

Lemma wf_cmd_fun : forall T c L prev n L1 n' L1',
  wf_cmd T L prev c n L1 -> wf_cmd T L prev c n' L1' -> n = n' /\ L1 = L1'.
Proof. intros T c L prev n L1 n' L1' H. apply (proj1 (wf_fun T) L prev c n L1 H). Qed.

Lemma wf_cmds_fun : forall T cs L prev ns L1 ns' L1',
  wf_cmds T L prev cs ns L1 -> wf_cmds T L prev cs ns' L1' -> ns = ns' /\ L1 = L1'.
Proof. intros T cs L prev ns L1 ns' L1' H. apply (proj2 (wf_fun T) L prev cs ns L1 H). Qed.

Print Assumptions wf_cmd_fun.
