(* CanonTree.v — C04 for every script of the grammar, whatever the order of its arguments.

   Every well-formed script has a canonical twin: same commands and tests, the arguments of each command
   rewritten in definition order (CanonFacts.legal_canonical).  The twin's tree carries the same content
   (same definition, same value under every key, same nesting: [nsim]) and is printed as the SAME text.  By the
   round-trip theorem for canonical trees (PrintTree.print_parse_roundtrip), the printed text of any tree of
   the grammar is accepted, parses to a tree with the same content, and printing that tree gives the same text. *)
From Coq Require Import List NArith Bool Arith Lia.
From SV Require Import lib.Bytes sieve.Lexer sieve.Tables sieve.ArgCheck sieve.ArgSpec sieve.Machine sieve.Printer
  sieve.ArgCheckFacts sieve.GateFacts sieve.TotalFacts sieve.LexerFacts sieve.CompleteFacts sieve.CompleteTree
  sieve.RenderFacts sieve.PrintTree sieve.CanonFacts.
Import ListNotations.
Local Close Scope N_scope.

Inductive nsim : node -> node -> Prop :=
| sim_leaf : forall d am em am' em', meq am am' -> meq em em' -> nsim (Node d am em [] []) (Node d am' em' [] [])
| sim_not : forall d k n n', nsim n n' -> nsim (Node d [(k, VTest n)] [] [] []) (Node d [(k, VTest n')] [] [] [])
| sim_list : forall d k ns ns', Forall2 nsim ns ns' ->
    nsim (Node d [(k, VTests ns)] [] [] []) (Node d [(k, VTests ns')] [] [] [])
| sim_ctl : forall d k n n' ch ch', nsim n n' -> Forall2 nsim ch ch' ->
    nsim (Node d [(k, VTest n)] [] ch []) (Node d [(k, VTest n')] [] ch' [])
| sim_else : forall d ch ch', Forall2 nsim ch ch' -> nsim (Node d [] [] ch []) (Node d [] [] ch' []).

Lemma nsim_def : forall a b, nsim a b -> node_def a = node_def b.
Proof. intros a b H. destruct H; reflexivity. Qed.

Lemma leaf_print : forall d am em am' em' cargs f ind,
  slots_args [32%N] d am em (d_args d) cargs -> slots_args [32%N] d am' em' (d_args d) cargs ->
  tosieve f (Node d am' em' [] []) ind = tosieve f (Node d am em [] []) ind.
Proof.
  intros d am em am' em' cargs f ind H H'. destruct f as [|f]; [reflexivity|].
  rewrite !tosieve_S. cbn [node_def node_children].
  rewrite (args_layout [32%N] d am em [] [] _ _ _ _ H), (args_layout [32%N] d am' em' [] [] _ _ _ _ H'). reflexivity.
Qed.

Lemma is_t1_not_tag : forall a, is_t1 a = true -> atype_mem TyTag (a_type a) = false.
Proof. intros a H. unfold is_t1 in H. destruct (a_type a) as [|[] [|y l]]; try discriminate. reflexivity. Qed.

Lemma is_tl_type : forall a, is_tl a = true -> a_type a = [TyTestList].
Proof. intros a H. unfold is_tl in H. destruct (a_type a) as [|[] [|y l]]; try discriminate. reflexivity. Qed.

Definition same_print (n' n : node) : Prop := forall f ind, tosieve f n' ind = tosieve f n ind.

Lemma kids_print : forall ns' ns f i, Forall2 same_print ns' ns ->
  p_kids (fun c => tosieve f c i) ns' = p_kids (fun c => tosieve f c i) ns.
Proof. intros ns' ns f i H. induction H as [|x y xs ys Hxy Hr IHr]; [reflexivity|]. cbn [p_kids]. rewrite (Hxy f i), IHr. reflexivity. Qed.

Lemma tests_print : forall ns' ns f, Forall2 same_print ns' ns ->
  p_tests (fun t => tosieve f t 0) ns' = p_tests (fun t => tosieve f t 0) ns.
Proof.
  intros ns' ns f H. induction H as [|x y xs ys Hxy Hr IHr]; [reflexivity|]. cbn [p_tests].
  destruct Hr as [|x2 y2 xs2 ys2 H2 Hr2]; [apply Hxy|]. rewrite (Hxy f 0), IHr. reflexivity.
Qed.

Lemma one_slot_print : forall d a v' v ch' ch,
  d_args d = [a] -> atype_mem TyTag (a_type a) = false ->
  (forall f ind b, p_value d (fun t => tosieve f t 0) (fun t => tosieve f t ind) b (a_name a) v' =
                   p_value d (fun t => tosieve f t 0) (fun t => tosieve f t ind) b (a_name a) v) ->
  Forall2 same_print ch' ch ->
  same_print (Node d [(a_name a, v')] [] ch' []) (Node d [(a_name a, v)] [] ch []).
Proof.
  intros d a v' v ch' ch Ha Hnt Hv Hch f ind. destruct f as [|f]; [reflexivity|].
  rewrite !tosieve_S. cbn [node_def node_children].
  rewrite Ha, !(p_args_one _ _ _ _ _ _ _ Hnt), Hv, (kids_print ch' ch f (ind + 4) Hch). reflexivity.
Qed.

Lemma fold_dc_eq : forall cs' cs, Forall2 (fun c' c => dc c' = dc c) cs' cs ->
  fold_right (fun x m => Nat.max (dc x) m) 0 cs' = fold_right (fun x m => Nat.max (dc x) m) 0 cs.
Proof. intros cs' cs H. induction H as [|x y xs ys Hxy Hr IHr]; [reflexivity|]. cbn [fold_right]. rewrite Hxy, IHr. reflexivity. Qed.

Section Lift.
  Variable T : tables.
  Hypothesis HTB : tbl_ok T = true.

  Lemma leaf_canon : forall L name d args am em,
    get_command_instance T L name = inl d -> wf_def d = true ->
    Forall arg_pr args -> Forall arg_ok args -> legal d L args = LComplete am em ->
    exists cargs am' em',
      get_command_instance T L (d_name d) = inl d /\ ident_ok (d_name d) = true /\
      Forall arg_ok cargs /\ legal d L cargs = LComplete am' em' /\ meq am' am /\ meq em' em /\
      slots_args [32%N] d am' em' (d_args d) cargs /\ same_print (Node d am' em' [] []) (Node d am em [] []).
  Proof.
    intros L name d args am em Hg Hwf Hpr Hall Hleg.
    destruct (gci_canonical_name T L name d HTB Hg) as (Hg' & Hdok & Hidn).
    destruct (legal_canonical d L args am em Hwf Hdok (argP_of _ Hpr Hall) Hleg) as (cargs & am' & em' & A & B & C & D & E).
    pose proof (slots_args_meq d am em am' em' _ _ (meq_sym _ _ _ B) (meq_sym _ _ _ C) D) as D'.
    exists cargs, am', em'. repeat (split; [eassumption || exact (argP_ok _ E)|]).
    intros f ind. apply (leaf_print d am em am' em' cargs f ind D D').
  Qed.

  (* the twin has the depth of the original only so that the same fuel prints both *)
  Definition Qt (L : list bytes) (t : gtest) (n : node) : Prop :=
    test_pr t ->
    exists t' n', wf_test T L t' n' /\ canon_test std_sep t' n' /\ nsim n' n /\ dt t' = dt t /\ same_print n' n.

  Theorem canon_of_test : forall L t n, wf_test T L t n -> Qt L t n.
  Proof.
    intro L. fix IH 3. intros t n H.
    destruct H as [name d args am em Hg Hty Hnts Hef Hwf Hfa Hall Hleg|name d a t1 n1 Hg Hty Ha Ht1 Hw1|name d a ts ns Hg Hty Ha Htl Hmf Hne Hws];
      intro Hp.
    - inversion Hp as [nm ar Hid Hpr| |]; subst.
      destruct (leaf_canon L name d args am em Hg Hwf Hpr Hall Hleg) as (cargs & am' & em' & Hg' & Hidn & Hok & A & B & C & D' & P).
      exists (GSimple (d_name d) cargs), (Node d am' em' [] []).
      split; [apply (wf_simple T L (d_name d) d cargs am' em' Hg' Hty Hnts Hef Hwf Hfa Hok A)|].
      split; [apply (ct_simple std_sep d cargs am' em' Hidn Hty D')|].
      split; [apply sim_leaf; assumption|]. split; [reflexivity|exact P].
    - inversion Hp as [|nm t0 Hid Hp1|]; subst.
      destruct (gci_canonical_name T L name d HTB Hg) as (Hg' & _ & Hidn).
      destruct (IH t1 n1 Hw1 Hp1) as (t1' & n1' & W1 & C1 & S1 & D1 & P1).
      exists (GNot (d_name d) t1'), (Node d [(a_name a, VTest n1')] [] [] []).
      split; [apply (wf_not T L (d_name d) d a t1' n1' Hg' Hty Ha Ht1 W1)|].
      split; [apply (ct_not std_sep d a t1' n1' Hidn Hty Ha (is_t1_not_tag a Ht1) C1)|].
      split; [apply sim_not; exact S1|]. split; [cbn [dt]; rewrite D1; reflexivity|].
      apply (one_slot_print d a _ _ [] [] Ha (is_t1_not_tag a Ht1)); [|constructor]. intros f ind b. apply P1.
    - inversion Hp as [| |nm l Hid Hne' Hpl]; subst.
      destruct (gci_canonical_name T L name d HTB Hg) as (Hg' & _ & Hidn).
      assert (G : exists ts' ns', Forall2 (wf_test T L) ts' ns' /\ Forall2 (canon_test std_sep) ts' ns' /\ Forall2 nsim ns' ns /\
                    Forall2 (fun t' t => dt t' = dt t) ts' ts /\ Forall2 same_print ns' ns).
      { clear Hne Hne' Hp. revert Hpl. induction Hws as [|t0 n0 ts0 ns0 H0 Hr IHr]; intro Hpl.
        - exists [], []. repeat split; constructor.
        - inversion Hpl as [|x xs Hx Hxs]; subst.
          destruct (IH t0 n0 H0 Hx) as (t0' & n0' & W0 & C0 & S0 & D0 & P0).
          destruct (IHr Hxs) as (ts' & ns' & A1 & A2 & A3 & A4 & A5).
          exists (t0' :: ts'), (n0' :: ns'). repeat split; constructor; assumption. }
      destruct G as (ts' & ns' & A1 & A2 & A3 & A4 & A5).
      assert (Hne2 : ts' <> []).
      { intro X. subst ts'. inversion A4; subst. congruence. }
      assert (Hnt : atype_mem TyTag (a_type a) = false) by (rewrite (is_tl_type a Htl); reflexivity).
      exists (GList (d_name d) ts'), (Node d [(a_name a, VTests ns')] [] [] []).
      split; [apply (wf_list T L (d_name d) d a ts' ns' Hg' Hty Ha Htl Hmf Hne2 A1)|].
      split; [apply (ct_list std_sep d a ts' ns' Hidn Hty Ha (is_tl_type a Htl) Hne2 A2)|].
      split; [apply sim_list; exact A3|].
      split.
      { cbn [dt]. f_equal. clear -A4. induction A4 as [|x y xs ys Hxy Hr IHr]; [reflexivity|]. cbn [fold_right]. rewrite Hxy, IHr. reflexivity. }
      apply (one_slot_print d a _ _ [] [] Ha Hnt); [|constructor]. intros f ind b.
      rewrite !(p_value_tests _ _ _ _ _ _ Ha (is_tl_type a Htl)), (tests_print ns' ns f A5). reflexivity.
  Qed.

  Definition Qc (L : list bytes) (prev : option bytes) (c : gcmd) (n : node) (L' : list bytes) : Prop :=
    cmd_pr c ->
    exists c' n', wf_cmd T L prev c' n' L' /\ canon_cmd std_sep c' n' /\ nsim n' n /\ dc c' = dc c /\ same_print n' n.

  Definition Qcs (L : list bytes) (prev : option bytes) (cs : list gcmd) (ns : list node) (L' : list bytes) : Prop :=
    Forall cmd_pr cs ->
    exists cs' ns', wf_cmds T L prev cs' ns' L' /\ Forall2 (canon_cmd std_sep) cs' ns' /\ Forall2 nsim ns' ns /\
                    Forall2 (fun c' c => dc c' = dc c) cs' cs /\ Forall2 same_print ns' ns.

  Lemma cb_ok_meq : forall d am am' L L', meq am' am -> cb_ok d am L L' -> cb_ok d am' L L'.
  Proof. intros d am am' L L' M H. unfold cb_ok in *. rewrite (M capabilities_key). exact H. Qed.

  Theorem canon_of_cmds : forall L prev cs ns L', wf_cmds T L prev cs ns L' -> Qcs L prev cs ns L'.
  Proof.
    apply (wf_cmds_mut T Qc Qcs).
    - intros L prev name d args am em L' Hg Hty Hch Hwf Hfa Hall Hleg Hfol Hcb Hp.
      inversion Hp as [nm ar Hid Hpr| |]; subst.
      destruct (leaf_canon L name d args am em Hg Hwf Hpr Hall Hleg) as (cargs & am' & em' & Hg' & Hidn & Hok & A & B & C & D' & P).
      exists (GAct (d_name d) cargs), (Node d am' em' [] []).
      split; [apply (wf_act T L prev (d_name d) d cargs am' em' L' Hg' Hty Hch Hwf Hfa Hok A Hfol (cb_ok_meq d am am' L L' B Hcb))|].
      split; [apply (cc_act std_sep d cargs am' em' Hidn Hty Hch D')|].
      split; [apply sim_leaf; assumption|]. split; [reflexivity|exact P].
    - intros L prev name d a t nt body ns L' Hg Hty Hch Ha Ht1 Hfol Hwt _ IHb Hp.
      inversion Hp as [|nm t0 b0 Hid Hpt Hpb|]; subst.
      destruct (gci_canonical_name T L name d HTB Hg) as (Hg' & _ & Hidn).
      destruct (canon_of_test L t nt Hwt Hpt) as (t' & nt' & W1 & C1 & S1 & D1 & P1).
      destruct (IHb Hpb) as (body' & ns' & W2 & C2 & S2 & D2 & P2).
      exists (GCtl (d_name d) t' body'), (Node d [(a_name a, VTest nt')] [] ns' []).
      split; [apply (wf_ctl T L prev (d_name d) d a t' nt' body' ns' L' Hg' Hty Hch Ha Ht1 Hfol W1 W2)|].
      split; [apply (cc_ctl std_sep d a t' nt' body' ns' Hidn Hty Hch Ha (is_t1_not_tag a Ht1) C1 C2)|].
      split; [apply sim_ctl; assumption|].
      split; [cbn [dc]; rewrite D1, (fold_dc_eq _ _ D2); reflexivity|].
      apply (one_slot_print d a _ _ _ _ Ha (is_t1_not_tag a Ht1)); [|exact P2]. intros f ind b. apply P1.
    - intros L prev name d body ns L' Hg Hty Hch Ha Hfol _ IHb Hp.
      inversion Hp as [| |nm b0 Hid Hpb]; subst.
      destruct (gci_canonical_name T L name d HTB Hg) as (Hg' & _ & Hidn).
      destruct (IHb Hpb) as (body' & ns' & W2 & C2 & S2 & D2 & P2).
      exists (GElse (d_name d) body'), (Node d [] [] ns' []).
      split; [apply (wf_else T L prev (d_name d) d body' ns' L' Hg' Hty Hch Ha Hfol W2)|].
      split; [apply (cc_else std_sep d body' ns' Hidn Hty Hch Ha C2)|].
      split; [apply sim_else; assumption|].
      split; [cbn [dc]; rewrite (fold_dc_eq _ _ D2); reflexivity|].
      intros f ind. destruct f as [|f]; [reflexivity|]. rewrite !tosieve_S. cbn [node_def node_children].
      rewrite Ha. cbn [p_args]. rewrite (kids_print ns' ns f (ind + 4) P2). reflexivity.
    - intros L prev _. exists [], []. split; [apply wf_nil|]. repeat split; constructor.
    - intros L prev c n L1 cs ns L2 _ IHc _ IHcs Hp.
      inversion Hp as [|x xs Hx Hxs]; subst.
      destruct (IHc Hx) as (c' & n' & W1 & C1 & S1 & D1 & P1).
      destruct (IHcs Hxs) as (cs' & ns' & W2 & C2 & S2 & D2 & P2).
      exists (c' :: cs'), (n' :: ns').
      split; [eapply wf_cons; [exact W1|rewrite (nsim_def _ _ S1); exact W2]|].
      repeat split; constructor; assumption.
  Qed.

  Hypothesis HT : twf_tables T = true.

  Lemma all_print_eq : forall ns' ns f, Forall2 same_print ns' ns -> tosieve_all f ns' = tosieve_all f ns.
  Proof.
    intros ns' ns f H. unfold tosieve_all. induction H as [|x y xs ys Hxy Hr IHr]; [reflexivity|].
    cbn [map concat]. rewrite (Hxy f 0), IHr. reflexivity.
  Qed.

  (* C04 for the whole grammar: the printed text of the tree of any well-formed printable script is accepted,
     parses to a tree with the same content, and printing that tree gives the same text *)
  Theorem print_parse_general : forall cs ns L' f,
    wf_cmds T [] None cs ns L' -> Forall cmd_pr cs -> cs <> [] ->
    fold_right (fun x m => Nat.max (dc x) m) 0 cs <= f ->
    exists ns', parse T (tosieve_all f ns) = Accept ns' /\ Forall2 nsim ns' ns /\
                tosieve_all f ns' = tosieve_all f ns.
  Proof.
    intros cs ns L' f Hwf Hp Hne Hf.
    destruct (canon_of_cmds [] None cs ns L' Hwf Hp) as (cs' & ns' & W & C & S & D & P).
    exists ns'. pose proof (all_print_eq ns' ns f P) as E. rewrite <- E.
    split; [|split; [exact S|reflexivity]].
    apply (print_parse_roundtrip std_sep std_sep_space T cs' ns' L' f HT W C).
    - intro X. subst cs'. inversion D; subst. congruence.
    - rewrite (fold_dc_eq _ _ D). exact Hf.
  Qed.
End Lift.

Print Assumptions canon_of_test.
Print Assumptions print_parse_general.
