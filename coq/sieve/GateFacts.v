(* GateFacts.v — property C07 "Extension use is gated by require", about the parser machine (Machine.v):
   [p_loaded] only grows, and only when a command whose completion hook is HRequire is closed by ';';
   get_command_instance and check_next_arg refuse what belongs to an extension that is not loaded;
   hence every extension needed by a node of an accepted script is in the final [p_loaded];
   the frozen RFC table of extension-owned commands / tags / match types is covered by the generated tables. *)
From Coq Require Import String.
From Coq Require Import List NArith Bool Arith Lia.
From SV Require Import Bytes Lexer Tables ArgCheck Machine GenTables PositionFacts.
From SV Require Export BytesFacts MachineFacts.
Import ListNotations.
Local Open Scope nat_scope.

Local Arguments up : simpl never.
Local Arguments check_completion : simpl never.
Local Arguments check_next_arg : simpl never.
Local Arguments complete_cb : simpl never.
Local Arguments get_command_instance : simpl never.
Local Arguments reassign_arguments : simpl never.
Local Arguments iscomplete : simpl never.
Local Arguments m_stringlist : simpl never.
Local Arguments m_argument : simpl never.
Local Arguments m_arguments : simpl never.
Local Arguments m_command : simpl never.
Local Arguments attach_into : simpl never.
Local Arguments replace_top : simpl never.
Local Arguments pop_bracket : simpl never.
Local Arguments new_frame : simpl never.

Lemma In_skipn : forall (A : Type) n (l : list A) x, In x (skipn n l) -> In x l.
Proof.
  intros A n l x H. rewrite <- (firstn_skipn n l). apply in_or_app. right. exact H.
Qed.

Definition keeps (L : list bytes) : mres -> Prop := mres_all (fun s => p_loaded s = L).

Lemma with_stack_loaded : forall s st, p_loaded (with_stack s st) = p_loaded st.
Proof. reflexivity. Qed.
Lemma with_cstate_loaded : forall c st, p_loaded (with_cstate c st) = p_loaded st.
Proof. reflexivity. Qed.
Lemma with_curlist_loaded : forall l st, p_loaded (with_curlist l st) = p_loaded st.
Proof. reflexivity. Qed.
Lemma with_expected_loaded : forall e st, p_loaded (with_expected e st) = p_loaded st.
Proof. reflexivity. Qed.
Lemma with_brackets_loaded : forall b st, p_loaded (with_brackets b st) = p_loaded st.
Proof. reflexivity. Qed.
Lemma with_hash_loaded : forall h st, p_loaded (with_hash h st) = p_loaded st.
Proof. reflexivity. Qed.
Lemma with_result_loaded : forall r st, p_loaded (with_result r st) = p_loaded st.
Proof. reflexivity. Qed.
Lemma with_loaded_loaded : forall l st, p_loaded (with_loaded l st) = l.
Proof. reflexivity. Qed.

Lemma replace_top_loaded : forall f st, p_loaded (replace_top f st) = p_loaded st.
Proof. intros f st. rewrite replace_top_eq. reflexivity. Qed.

Lemma pop_bracket_loaded : forall st b st1, pop_bracket st b = inl st1 -> p_loaded st1 = p_loaded st.
Proof. intros st b st1 H. destruct (pop_bracket_inl _ _ _ H) as (t & _ & ->). reflexivity. Qed.

Lemma moved_keeps : forall st r, mres_all (moved st) r -> keeps (p_loaded st) r.
Proof. intros st [s|s|s|e|]; cbn; auto; intros (stk & e0 & ->); reflexivity. Qed.

Lemma check_completion_keeps : forall st b, keeps (p_loaded st) (check_completion st b).
Proof. intros st b. apply moved_keeps, check_completion_moved. Qed.

Lemma up_keeps : forall st, keeps (p_loaded st) (up st).
Proof.
  intro st. pose proof (up_cases st) as U. destruct (up st); cbn; auto; try contradiction.
  destruct U as [(cur & _ & ->)|(cur & parent & rest & _ & stk & e & ->)]; reflexivity.
Qed.

Lemma keeps_eq : forall L L' r, keeps L r -> L = L' -> keeps L' r.
Proof. intros; subst; auto. Qed.

Lemma lift_cna_keeps : forall r st k,
  (forall st2, p_loaded st2 = p_loaded st -> keeps (p_loaded st) (k st2)) ->
  keeps (p_loaded st) (lift_cna r st k).
Proof.
  intros r st k H. destruct r; cbn; auto. apply H. apply replace_top_loaded.
Qed.

Lemma m_stringlist_keeps : forall st t, keeps (p_loaded st) (m_stringlist st t).
Proof.
  intros st t. unfold m_stringlist. destruct (p_stack st) as [|cur rest]; cbn; auto.
  destruct (t_kind t); cbn; auto.
  - destruct (pop_bracket st BRBracket) as [st1|e] eqn:E; cbn; auto.
    pose proof (pop_bracket_loaded _ _ _ E) as H1. rewrite <- H1.
    apply lift_cna_keeps. intros st2 H2.
    eapply keeps_eq. apply check_completion_keeps. cbn. exact H2.
  - destruct (negb _); cbn; auto.
Qed.

Lemma m_argument_keeps : forall st t, keeps (p_loaded st) (m_argument st t).
Proof.
  intros st t. unfold m_argument. destruct (p_stack st) as [|cur rest] eqn:Es; cbn; auto.
  (* by kind: numbers and tags; strings (UTF-8 check first); '{' and ',' (reassign); for the rest p_loaded is
     untouched by computation *)
  destruct (t_kind t); cbn; auto;
    try (apply lift_cna_keeps; intros st2 H2; exact H2);
    try (destruct (negb (utf8_valid _)); cbn; auto; apply lift_cna_keeps; intros st2 H2; exact H2);
    try (destruct (d_non_deterministic_args _); cbn; auto;
         destruct (reassign_arguments cur); cbn; auto;
         destruct (negb _); cbn; apply replace_top_loaded).
Qed.

Lemma m_arguments_default_keeps : forall st t, keeps (p_loaded st) (m_arguments_default st t).
Proof.
  intros st t. unfold m_arguments_default.
  pose proof (m_argument_keeps st t) as H. destruct (m_argument st t) as [s|s|s|e|]; cbn in *; auto.
  - eapply keeps_eq. apply check_completion_keeps. exact H.
  - pose proof (check_completion_keeps s false) as H'. rewrite H in H'.
    destruct (check_completion s false); cbn in *; auto.
Qed.

Lemma m_arguments_keeps : forall T st t, keeps (p_loaded st) (m_arguments T st t).
Proof.
  intros T st t. rewrite m_arguments_eq.
  destruct (t_kind t); try apply m_arguments_default_keeps; cbn; auto.
  - destruct (pop_bracket st BRParen) as [st1|e] eqn:E; cbn; auto.
    rewrite <- (pop_bracket_loaded _ _ _ E). apply up_keeps.
  - unfold m_arguments_test. destruct (p_stack st) as [|cur rest] eqn:Es; cbn; auto.
    destruct (get_command_instance _ _ _) as [d|e]; cbn; auto.
    destruct (d_type d); cbn; auto.
    destruct (check_next_arg _ _ _ _ _ _) as [cur' slot| | |]; cbn; auto.
    eapply keeps_eq. apply check_completion_keeps. cbn. apply replace_top_loaded.
Qed.

Definition caps_of (f : frame) (items : list bytes) : Prop :=
  assoc_get capabilities_key (f_args f) = Some (VList items) \/
  exists s, assoc_get capabilities_key (f_args f) = Some (VStr s) /\ items = [s].

Definition loaded_step (st : pstate) (t : token) (st' : pstate) : Prop :=
  p_loaded st' = p_loaded st \/
  (t_kind t = TSemicolon /\
   exists st2 f rest items,
     p_loaded st2 = p_loaded st /\ p_stack st2 = f :: rest /\
     d_complete (f_def f) = HRequire /\ caps_of f items /\
     p_loaded st' = load_exts items (p_loaded st)).

Definition load_steps (st : pstate) (t : token) (r : mres) : Prop :=
  match r with
  | MTrue s | MRewind s => loaded_step st t s
  | MFalse s => p_loaded s = p_loaded st
  | MErr _ | MCrash => True
  end.

Lemma keeps_steps : forall st t r, keeps (p_loaded st) r -> load_steps st t r.
Proof. intros st t r H. destruct r; cbn in *; auto; left; exact H. Qed.

(* after a False of the argument states the token may close the command: only then, and only for a
   require, are extensions loaded *)
Lemma after_false_steps : forall st t s, p_loaded s = p_loaded st -> load_steps st t (after_false t s).
Proof.
  intros st t s Hr. unfold after_false. destruct (t_kind t) eqn:Ek; cbn; auto.
  - destruct (p_stack s); cbn; auto. destruct (_ && _); cbn; auto. left. exact Hr.
  - destruct (p_stack s) as [|cur rest]; cbn; auto.
    destruct (is_test cur || _); cbn; auto.
    destruct (pending_param cur); cbn; auto.
    pose proof (check_completion_keeps (with_cstate CNone s) false) as Hc. cbn in Hc.
    destruct (check_completion (with_cstate CNone s) false) as [s2|s2|s2|e|]; cbn in *; auto;
      try congruence.
    pose proof (complete_cb_cases s2) as C. pose proof (up_keeps) as Hu.
    destruct (complete_cb s2) as [s3|s3|s3|e|]; cbn; auto; try contradiction.
    destruct C as [->|(f & rest' & items & Hs & Hd & Hcaps & ->)].
    + apply keeps_steps. eapply keeps_eq; [apply Hu|congruence].
    + specialize (Hu (with_loaded (load_exts items (p_loaded s2)) s2)). cbn in Hu.
      pose proof (up_cases (with_loaded (load_exts items (p_loaded s2)) s2)) as U.
      destruct (up _) as [s4|s4|s4|e|]; cbn in *; auto; try contradiction.
      right. split; auto. exists s2, f, rest', items. repeat split; auto; congruence.
Qed.

Lemma on_false_steps : forall st t r, keeps (p_loaded st) r -> load_steps st t (on_false t r).
Proof.
  intros st t [s|s|s|e|] Hr; cbn in *; auto; try (left; exact Hr). apply after_false_steps. exact Hr.
Qed.

Lemma m_command_steps : forall T st t, load_steps st t (m_command T st t).
Proof.
  intros T st t. rewrite m_command_eq. destruct (p_cstate st).
  - unfold m_command_none. destruct (t_kind t); cbn; auto.
    + destruct (pop_bracket st BRCBracket) as [st1|e] eqn:E; cbn; auto.
      pose proof (up_keeps st1) as Hu. rewrite (pop_bracket_loaded _ _ _ E) in Hu.
      destruct (up st1); cbn in *; auto; left; exact Hu.
    + destruct (get_command_instance _ _ _) as [d|e]; cbn; auto.
      destruct (d_type d) eqn:Ety; cbn; auto.
      * destruct (p_stack st) as [|cur rest]; cbn.
        -- left. destruct (d_accept_children d && has_arguments d); reflexivity.
        -- destruct (d_accept_children (f_def cur)); cbn; auto.
           left. destruct (d_accept_children d && has_arguments d); reflexivity.
      * destruct (p_stack st) as [|cur rest]; cbn.
        -- left. reflexivity.
        -- destruct (d_accept_children (f_def cur)); cbn; auto. left. reflexivity.
  - apply on_false_steps, m_arguments_keeps.
  - apply on_false_steps, m_stringlist_keeps.
Qed.

Lemma process_steps : forall T st t, load_steps st t (process T st t).
Proof.
  intros T st t. rewrite process_eq.
  assert (H : load_steps st t (expect_then T st t)).
  { unfold expect_then. destruct (p_expected st) as [l|]; [|apply m_command_steps].
    destruct (kind_mem _ _); cbn; auto.
    pose proof (m_command_steps T (with_expected None st) t) as Hm.
    destruct (m_command T (with_expected None st) t); cbn in *; auto. }
  destruct (t_kind t); try exact H; cbn; left; reflexivity.
Qed.

(* C07 (a): the loaded extensions change only at a ';', and then by load_exts of the capabilities of some
   frame whose completion hook is HRequire (the statement does not tie that frame to the stack of [st]) *)
Theorem process_loaded_true : forall T st t st',
  process T st t = MTrue st' -> loaded_step st t st'.
Proof. intros T st t st' H. pose proof (process_steps T st t) as P. rewrite H in P. exact P. Qed.

Theorem process_loaded_rewind : forall T st t st',
  process T st t = MRewind st' -> loaded_step st t st'.
Proof. intros T st t st' H. pose proof (process_steps T st t) as P. rewrite H in P. exact P. Qed.

Lemma load_exts_mem : forall items L e, mem e L = true -> mem e (load_exts items L) = true.
Proof.
  induction items as [|x items IH]; intros L e H; cbn [load_exts]; auto.
  apply IH. destruct (mem (strip_dq x) L); auto. apply mem_app_l. exact H.
Qed.

Lemma load_exts_incl : forall items L, incl L (load_exts items L).
Proof. intros items L e H. apply mem_In. apply load_exts_mem. apply mem_In. exact H. Qed.

Lemma load_exts_loads : forall items L x, In x items -> mem (strip_dq x) (load_exts items L) = true.
Proof.
  induction items as [|y items IH]; intros L x H; [destruct H|].
  destruct H as [H|H]; cbn [load_exts].
  - subst. apply load_exts_mem. destruct (mem (strip_dq x) L) eqn:E; auto.
    apply mem_In. apply in_or_app. right. left. reflexivity.
  - apply IH. exact H.
Qed.

Lemma load_exts_only : forall items L e,
  mem e (load_exts items L) = true -> mem e L = true \/ exists x, In x items /\ e = strip_dq x.
Proof.
  induction items as [|y items IH]; intros L e H; cbn [load_exts] in H; auto.
  apply IH in H. destruct H as [H|(x & Hx & He)].
  - destruct (mem (strip_dq y) L); auto.
    apply mem_In in H. apply in_app_or in H. destruct H as [H|[H|[]]].
    + left. apply mem_In. exact H.
    + right. exists y. split; [left; reflexivity | congruence].
  - right. exists x. split; [right; exact Hx | exact He].
Qed.

Lemma loaded_step_incl : forall st t st', loaded_step st t st' -> incl (p_loaded st) (p_loaded st').
Proof.
  intros st t st' [H|(_ & st2 & f & rest & items & _ & _ & _ & _ & H)]; rewrite H.
  - apply incl_refl.
  - apply load_exts_incl.
Qed.

Theorem process_loaded_incl : forall T st t st',
  process T st t = MTrue st' \/ process T st t = MRewind st' -> incl (p_loaded st) (p_loaded st').
Proof.
  intros T st t st' [H|H]; eapply loaded_step_incl.
  - eapply process_loaded_true. exact H.
  - eapply process_loaded_rewind. exact H.
Qed.

(* a non-empty extension name, as a list of at most one element *)
Definition ext_list (o : option bytes) : list bytes :=
  match o with Some (c :: e) => [c :: e] | _ => [] end.

Definition loaded_all (L es : list bytes) : Prop := forall e, In e es -> mem e L = true.

Lemma loaded_all_nil : forall L, loaded_all L [].
Proof. intros L e []. Qed.

Lemma loaded_all_app : forall L a b, loaded_all L (a ++ b) <-> loaded_all L a /\ loaded_all L b.
Proof.
  intros L a b. unfold loaded_all. split.
  - intro H. split; intros e He; apply H; apply in_or_app; auto.
  - intros [Ha Hb] e He. apply in_app_or in He. destruct He; auto.
Qed.

(* C07 (b1): a command that belongs to an extension is only instantiated when it is loaded *)
Theorem gci_gate : forall T loaded name d,
  get_command_instance T loaded name = inl d ->
  match d_extension d with Some (c :: e) => mem (c :: e) loaded = true | _ => True end.
Proof.
  intros T loaded name d. unfold get_command_instance.
  destruct (lookup_cmd T (lower name)) as [d0|]; try discriminate.
  destruct (d_extension d0) as [[|c e]|] eqn:Ee.
  - intro H; inversion H; subst. rewrite Ee. exact I.
  - destruct (mem (c :: e) loaded) eqn:Em; intro H; inversion H; subst. rewrite Ee. exact Em.
  - intro H; inversion H; subst. rewrite Ee. exact I.
Qed.

Corollary gci_gate_all : forall T loaded name d,
  get_command_instance T loaded name = inl d -> loaded_all loaded (ext_list (d_extension d)).
Proof.
  intros T loaded name d H. apply gci_gate in H. unfold ext_list.
  destruct (d_extension d) as [[|c e]|]; try apply loaded_all_nil.
  intros x [<-|[]]. exact H.
Qed.

(* The extensions a slot demands for the value [s]:
   - its own a_extension, which cna_scan consults for OPTIONAL slots only (for a required slot
     a_extension is never read);
   - the a_extension_values entry of lower(s), which __is_valid_value_for_arg consults only when
     lower(s) is not already one of a_values. *)
Definition own_ext (a : argdef) : list bytes :=
  if a_required a then [] else ext_list (a_extension a).
Definition value_ext (a : argdef) (s : bytes) : list bytes :=
  if match a_values a with Some l => mem (lower s) l | None => false end then []
  else match a_extension_values a with
       | Some m => ext_list (assoc_get (lower s) m)
       | None => []
       end.
Definition slot_needs (a : argdef) (s : bytes) : list bytes := own_ext a ++ value_ext a s.

Lemma ivv_gate : forall a s L,
  is_valid_value a (VStr s) true L = VTrue -> loaded_all L (value_ext a s).
Proof.
  intros a s L. unfold is_valid_value, value_ext.
  destruct (a_values a) as [vals|]; destruct (a_extension_values a) as [m|];
    try (intros _; try destruct (mem (lower s) vals); apply loaded_all_nil).
  - destruct (mem (lower s) vals); [intros _; apply loaded_all_nil|].
    destruct (assoc_get (lower s) m) as [[|c e]|]; try discriminate.
    destruct (mem (c :: e) L) eqn:Em; cbn; try discriminate.
    intros _ x [<-|[]]. exact Em.
  - destruct (assoc_get (lower s) m) as [[|c e]|]; try discriminate.
    destruct (mem (c :: e) L) eqn:Em; cbn; try discriminate.
    intros _ x [<-|[]]. exact Em.
Qed.

Definition gated (L : list bytes) (ca : argdef) (v : aval) : Prop :=
  loaded_all L (own_ext ca) /\ (forall s, v = VStr s -> loaded_all L (value_ext ca s)).

Definition scan_spec (L : list bytes) (defs : list argdef) (f : frame) (v : aval) (add : bool)
           (f' : frame) (slot : option argdef) : Prop :=
  f_def f' = f_def f /\ f_children f' = f_children f /\
  match slot with
  | None => f_args f' = f_args f
  | Some ca =>
      In ca defs /\
      ((a_required ca = true /\ only_testlist (a_type ca) = true /\ f' = f) \/
       (f_args f' = (if add then assoc_set (a_name ca) v (f_args f) else f_args f) /\ gated L ca v))
  end.

Lemma scan_spec_mono : forall L defs defs' f v add f' slot,
  (forall a, In a defs -> In a defs') ->
  scan_spec L defs f v add f' slot -> scan_spec L defs' f v add f' slot.
Proof.
  intros L defs defs' f v add f' slot Hi (H1 & H2 & H3). split; auto. split; auto.
  destruct slot as [ca|]; auto. destruct H3 as [Hin H3]. split; auto.
Qed.

Lemma cna_scan_spec : forall defs f pos t v add L f' slot,
  cna_scan f defs pos t v add true L = CnaOk f' slot -> scan_spec L defs f v add f' slot.
Proof.
  induction defs as [|ca rest IH]; intros f pos t v add L f' slot; cbn [cna_scan].
  - intro H. inversion H; subst. repeat split; auto.
  - assert (Hrec : cna_scan f rest (S pos) t v add true L = CnaOk f' slot ->
                   scan_spec L (ca :: rest) f v add f' slot).
    { intro H. apply IH in H. eapply scan_spec_mono; [|exact H]. intros a Ha. right. exact Ha. }
    destruct (a_required ca) eqn:Er.
    + rewrite match_testlist. destruct (only_testlist (a_type ca)) eqn:Etl.
      * destruct (negb _); try discriminate. intro H; inversion H; subst.
        split; auto. split; auto. split; [left; reflexivity|]. left. auto.
      * destruct (negb _); try discriminate.
        destruct (is_valid_value ca v true L) eqn:Ev; try discriminate.
        intro H. inversion H; subst. clear H.
        assert (Hg : gated L ca v).
        { split.
          - unfold own_ext. rewrite Er. apply loaded_all_nil.
          - intros s ->. apply ivv_gate. exact Ev. }
        split; [destruct add; reflexivity|]. split; [destruct add; reflexivity|].
        split; [left; reflexivity|]. right. split; auto. destruct add; reflexivity.
    + destruct (atype_mem t (a_type ca)); [|exact Hrec].
      destruct (is_valid_value ca v true L) eqn:Ev; try discriminate; [|exact Hrec].
      match goal with
      | |- match ?m with Some _ => _ | None => _ end = _ -> _ => destruct m eqn:Emiss
      end; [intro H; discriminate H|].
      assert (Hg : gated L ca v).
      { split.
        - unfold own_ext. rewrite Er. unfold ext_list.
          destruct (a_extension ca) as [[|c e]|]; try apply loaded_all_nil.
          destruct (mem (c :: e) L) eqn:Em; cbn in Emiss; try discriminate.
          intros x [<-|[]]. exact Em.
        - intros s ->. apply ivv_gate. exact Ev. }
      intro H. inversion H; subst. clear H.
      match goal with |- context [if ?b then set_curarg f (Some ca) else f] => destruct b end;
        (split; [destruct add; reflexivity|]; split; [destruct add; reflexivity|];
         split; [left; reflexivity|]; right; split; auto; destruct add; reflexivity).
Qed.

Lemma cna_spec : forall f t v add L f' slot,
  check_next_arg f t v add true L = CnaOk f' slot ->
  scan_spec L (d_args (f_def f)) f v add f' slot.
Proof.
  intros f t v add L f' slot. unfold check_next_arg.
  destruct (negb (has_arguments _)); try discriminate.
  destruct (iscomplete f _); try discriminate.
  assert (Hs : cna_scan f (skipn (f_nextargpos f) (d_args (f_def f))) (f_nextargpos f) t v add true L
               = CnaOk f' slot -> scan_spec L (d_args (f_def f)) f v add f' slot).
  { intro H. apply cna_scan_spec in H. eapply scan_spec_mono; [|exact H].
    intros a Ha. eapply In_skipn. exact Ha. }
  destruct (f_curarg f) as [ca|]; [|exact Hs].
  destruct (a_extra ca) as [ex|]; [|exact Hs].
  destruct (_ && _); try discriminate. intro H; inversion H; subst.
  destruct add; repeat split; reflexivity.
Qed.

(* C07 (b2): when slot [ca] takes an argument, then
   - [ca] is one of the command's slots;
   - unless [ca] is a required test list (whose value is never inspected and which stores nothing):
     * if [ca] is optional, its own extension (when non-empty) is loaded — for a REQUIRED slot
       a_extension is not consulted by check_next_arg, so nothing can be said;
     * if the value is a str whose lower-cased form is not one of a_values and
       a_extension_values maps it to a non-empty extension, that extension is loaded. *)
Theorem cna_gate : forall f t v add loaded f' ca,
  check_next_arg f t v add true loaded = CnaOk f' (Some ca) ->
  In ca (d_args (f_def f)) /\
  ((a_required ca = true /\ a_type ca = [TyTestList] /\ f' = f) \/
   ((a_required ca = false ->
     match a_extension ca with Some (c :: e) => mem (c :: e) loaded = true | _ => True end) /\
    (forall s m c e, v = VStr s ->
       match a_values ca with Some l => mem (lower s) l | None => false end = false ->
       a_extension_values ca = Some m -> assoc_get (lower s) m = Some (c :: e) ->
       mem (c :: e) loaded = true))).
Proof.
  intros f t v add loaded f' ca H. apply cna_spec in H. destruct H as (_ & _ & Hin & H).
  split; auto. destruct H as [(Hr & Htl & Hf)|(_ & Hown & Hval)].
  - left. split; auto. split; auto. apply only_testlist_eq. exact Htl.
  - right. split.
    + intro Hr. unfold own_ext in Hown. rewrite Hr in Hown. unfold ext_list in Hown.
      destruct (a_extension ca) as [[|c e]|]; auto. apply Hown. left. reflexivity.
    + intros s m c e Hv Hnv Hm Hget. specialize (Hval s Hv). unfold value_ext in Hval.
      rewrite Hnv, Hm, Hget in Hval. apply Hval. left. reflexivity.
Qed.

Corollary cna_gate_own : forall f t v add loaded f' ca c e,
  check_next_arg f t v add true loaded = CnaOk f' (Some ca) ->
  a_required ca = false -> a_extension ca = Some (c :: e) -> mem (c :: e) loaded = true.
Proof.
  intros f t v add loaded f' ca c e H Hr He. apply cna_gate in H.
  destruct H as [_ [(Hr' & _)|(H & _)]]; [congruence|].
  specialize (H Hr). rewrite He in H. exact H.
Qed.

Definition find_slot (d : cmddef) (name : bytes) : option argdef :=
  find (fun a => beq (a_name a) name) (d_args d).

Definition named_needs (d : cmddef) (name s : bytes) : list bytes :=
  match find_slot d name with Some a => slot_needs a s | None => [] end.

Definition arg_needs (rec : node -> list bytes) (d : cmddef) (nv : bytes * aval) : list bytes :=
  match snd nv with
  | VStr s => named_needs d (fst nv) s
  | VList _ => []
  | VTest m => rec m
  | VTests ms => flat_map rec ms
  end.

(* the extensions a tree needs: the command's own extension, the extensions demanded by its
   str arguments (tags, strings, numbers), and recursively those of its test arguments and
   children.  [node] is a nested inductive type: the recursion is on explicit fuel; all the
   statements below quantify over every fuel. *)
Fixpoint needs (fuel : nat) (n : node) : list bytes :=
  match fuel with
  | O => []
  | S k =>
      match n with
      | Node d args _ children _ =>
          ext_list (d_extension d)
          ++ flat_map (arg_needs (needs k) d) args
          ++ flat_map (needs k) children
      end
  end.

(* table well-formedness used by the tree-level invariant (checked on gen_tables below):
   slot names are unique within a command (so "find by name" finds the slot that took the
   value), and for a command with the hasflag reassign hook the slot named list-of-flags, which
   receives a value that was checked against another slot, demands nothing. *)
Fixpoint names_unique (l : list argdef) : bool :=
  match l with
  | [] => true
  | a :: t => negb (existsb (fun b => beq (a_name b) (a_name a)) t) && names_unique t
  end.

Definition lf_key : bytes := [108;105;115;116;45;111;102;45;102;108;97;103;115]%N.
Definition vl_key : bytes := [118;97;114;105;97;98;108;101;45;108;105;115;116]%N.

Definition no_needs (a : argdef) : bool :=
  (a_required a || match a_extension a with Some (_ :: _) => false | _ => true end)
  && match a_extension_values a with None => true | Some _ => false end.

Definition def_wf (d : cmddef) : bool :=
  names_unique (d_args d) &&
  match d_reassign d with
  | RNotImplemented => true
  | RHasflag => match find_slot d lf_key with Some a => no_needs a | None => true end
  end.

Definition wf_tables (T : tables) : bool := forallb (fun kd => def_wf (snd kd)) T.

Lemma no_needs_nil : forall a s, no_needs a = true -> slot_needs a s = [].
Proof.
  intros a s H. unfold no_needs in H. apply andb_true_iff in H. destruct H as [H1 H2].
  unfold slot_needs, own_ext, value_ext.
  destruct (a_extension_values a); try discriminate.
  destruct (a_required a); cbn in *.
  - destruct (match a_values a with Some l => mem (lower s) l | None => false end); reflexivity.
  - destruct (a_extension a) as [[|c e]|]; try discriminate;
      destruct (match a_values a with Some l => mem (lower s) l | None => false end); reflexivity.
Qed.

Lemma find_unique : forall l ca,
  names_unique l = true -> In ca l -> find (fun a => beq (a_name a) (a_name ca)) l = Some ca.
Proof.
  induction l as [|x t IH]; intros ca Hu Hin; [destruct Hin|].
  cbn in Hu. apply andb_true_iff in Hu. destruct Hu as [Hx Ht]. cbn [find].
  destruct Hin as [->|Hin].
  - rewrite beq_refl. reflexivity.
  - destruct (beq (a_name x) (a_name ca)) eqn:E.
    + exfalso. apply negb_true_iff in Hx.
      assert (existsb (fun b => beq (a_name b) (a_name x)) t = true).
      { apply existsb_exists. exists ca. split; auto. rewrite beq_sym. exact E. }
      congruence.
    + apply IH; auto.
Qed.

Definition node_ok (L : list bytes) (n : node) : Prop := forall fuel, loaded_all L (needs fuel n).

Definition aval_ok (L : list bytes) (d : cmddef) (nv : bytes * aval) : Prop :=
  match snd nv with
  | VStr s => loaded_all L (named_needs d (fst nv) s)
  | VList _ => True
  | VTest m => node_ok L m
  | VTests ms => forall m, In m ms -> node_ok L m
  end.

Lemma node_ok_Node : forall L d args extra ch c,
  node_ok L (Node d args extra ch c) <->
  loaded_all L (ext_list (d_extension d)) /\
  (forall nv, In nv args -> aval_ok L d nv) /\
  (forall n, In n ch -> node_ok L n).
Proof.
  intros L d args extra ch c. split.
  - intro H. split; [|split].
    + specialize (H 1). cbn [needs] in H. apply loaded_all_app in H. apply H.
    + intros [name v] Hin. unfold aval_ok. cbn [snd fst].
      assert (Hk : forall k, loaded_all L (arg_needs (needs k) d (name, v))).
      { intros k e He. apply (H (S k)). cbn [needs]. apply in_or_app. right. apply in_or_app. left.
        apply in_flat_map. exists (name, v). split; auto. }
      destruct v as [s|l|m|ms].
      * apply (Hk 0).
      * exact I.
      * intro k. apply (Hk k).
      * intros m Hm k e He. apply (Hk k). unfold arg_needs. cbn [snd].
        apply in_flat_map. exists m. split; auto.
    + intros n Hin k e He. apply (H (S k)). cbn [needs]. apply in_or_app. right. apply in_or_app. right.
      apply in_flat_map. exists n. split; auto.
  - intros (H1 & H2 & H3) fuel. destruct fuel as [|k]; [apply loaded_all_nil|]. cbn [needs].
    apply loaded_all_app. split; auto. apply loaded_all_app. split.
    + intros e He. apply in_flat_map in He. destruct He as ([name v] & Hin & He).
      specialize (H2 _ Hin). unfold aval_ok in H2. unfold arg_needs in He. cbn [snd fst] in *.
      destruct v as [s|l|m|ms].
      * apply H2. exact He.
      * destruct He.
      * apply (H2 k). exact He.
      * apply in_flat_map in He. destruct He as (m & Hm & He). apply (H2 m Hm k). exact He.
    + intros e He. apply in_flat_map in He. destruct He as (n & Hin & He). apply (H3 n Hin k). exact He.
Qed.

Lemma loaded_all_mono : forall L L' es,
  (forall e, mem e L = true -> mem e L' = true) -> loaded_all L es -> loaded_all L' es.
Proof. intros L L' es Hm H e He. apply Hm. apply H. exact He. Qed.

Lemma node_ok_mono : forall L L' n,
  (forall e, mem e L = true -> mem e L' = true) -> node_ok L n -> node_ok L' n.
Proof. intros L L' n Hm H k. eapply loaded_all_mono; eauto. Qed.

Lemma aval_ok_mono : forall L L' d nv,
  (forall e, mem e L = true -> mem e L' = true) -> aval_ok L d nv -> aval_ok L' d nv.
Proof.
  intros L L' d [name v] Hm H. unfold aval_ok in *. cbn [snd fst] in *. destruct v; auto.
  - eapply loaded_all_mono; eauto.
  - eapply node_ok_mono; eauto.
  - intros m Hin. eapply node_ok_mono; eauto.
Qed.

Record frame_ok (L : list bytes) (f : frame) : Prop := mkFrameOk {
  fo_wf : def_wf (f_def f) = true;
  fo_cmd : loaded_all L (ext_list (d_extension (f_def f)));
  fo_args : forall nv, In nv (f_args f) -> aval_ok L (f_def f) nv;
  fo_children : forall n, In n (f_children f) -> node_ok L n
}.

Lemma frame_ok_mono : forall L L' f,
  (forall e, mem e L = true -> mem e L' = true) -> frame_ok L f -> frame_ok L' f.
Proof.
  intros L L' f Hm [H1 H2 H3 H4]. constructor; auto.
  - eapply loaded_all_mono; eauto.
  - intros nv Hin. eapply aval_ok_mono; eauto.
  - intros n Hin. eapply node_ok_mono; eauto.
Qed.

Lemma frame_node_ok : forall L f c, frame_ok L f -> node_ok L (frame_node f c).
Proof. intros L f c [H1 H2 H3 H4]. unfold frame_node. apply node_ok_Node. auto. Qed.

Lemma new_frame_ok : forall L d a,
  def_wf d = true -> loaded_all L (ext_list (d_extension d)) -> frame_ok L (new_frame d a).
Proof. intros L d a Hw Hc. constructor; cbn; auto; intros ? []. Qed.

Lemma set_arg_ok : forall L f name v,
  frame_ok L f -> aval_ok L (f_def f) (name, v) -> frame_ok L (set_arg f name v).
Proof.
  intros L f name v [H1 H2 H3 H4] Hv. constructor; cbn; auto.
  intros nv Hin. apply in_assoc_set in Hin. destruct Hin as [Hin| ->]; auto.
Qed.

Lemma attach_into_ok : forall L child parent,
  frame_ok L child -> frame_ok L parent -> frame_ok L (attach_into child parent).
Proof.
  intros L child parent Hc Hp. unfold attach_into.
  pose proof (frame_node_ok L child [] Hc) as Hn.
  destruct (f_attach child) as [| |slot|slot]; auto.
  - destruct Hp as [H1 H2 H3 H4]. constructor; cbn; auto.
    intros n Hin. apply in_app_or in Hin. destruct Hin as [Hin|[<-|[]]]; auto.
  - apply set_arg_ok; auto.
  - unfold append_test. apply set_arg_ok; auto. unfold aval_ok. cbn [snd].
    intros m Hin. apply in_app_or in Hin. destruct Hin as [Hin|[<-|[]]]; auto.
    destruct (assoc_get slot (f_args parent)) as [[s|l|n|ns]|] eqn:Eg; try destruct Hin.
    apply assoc_get_In in Eg. apply (fo_args _ _ Hp) in Eg. unfold aval_ok in Eg. cbn [snd] in Eg.
    apply Eg. exact Hin.
Qed.

(* the values the machine passes to check_next_arg: a str, a list of str, or the placeholder *)
Definition simple (v : aval) : Prop :=
  match v with VStr _ | VList _ => True | VTests [] => True | _ => False end.

Lemma cna_frame_ok : forall L f t v add f' slot,
  frame_ok L f -> simple v ->
  check_next_arg f t v add true L = CnaOk f' slot -> frame_ok L f'.
Proof.
  intros L f t v add f' slot Hf Hv H. apply cna_spec in H. destruct H as (Hd & Hc & H).
  assert (Hsame : f_args f' = f_args f -> frame_ok L f').
  { intro Ha. destruct Hf as [H1 H2 H3 H4]. constructor; rewrite ?Hd, ?Hc, ?Ha; auto. }
  destruct slot as [ca|]; auto.
  destruct H as [Hin [(_ & _ & ->)|[Ha [Hown Hval]]]]; auto.
  destruct add; auto.
  destruct Hf as [H1 H2 H3 H4]. constructor; rewrite ?Hd, ?Hc, ?Ha; auto.
  intros nv Hnv. apply in_assoc_set in Hnv. destruct Hnv as [Hnv| ->]; auto.
  unfold aval_ok. cbn [snd fst]. destruct v as [s|l|m|[|m ms]]; try exact I; try destruct Hv.
  - unfold named_needs, find_slot.
    unfold def_wf in H1. apply andb_true_iff in H1. destruct H1 as [Hu _].
    rewrite (find_unique _ _ Hu Hin). unfold slot_needs. apply loaded_all_app. split; auto.
  - intros m [].
Qed.

Lemma reassign_ok : forall L f f', frame_ok L f -> reassign_arguments f = Some f' -> frame_ok L f'.
Proof.
  intros L f f' Hf. unfold reassign_arguments.
  destruct (d_reassign (f_def f)) eqn:Er; try discriminate.
  fold vl_key. fold lf_key.
  destruct (assoc_get vl_key (f_args f)) as [v|] eqn:Ev.
  - destruct (assoc_get lf_key (f_args f)) as [w|] eqn:Ew; intro H; inversion H; subst; auto.
    destruct Hf as [H1 H2 H3 H4]. constructor; cbn; auto.
    intros nv Hin. apply in_app_or in Hin. destruct Hin as [Hin|[<-|[]]].
    + apply H3. eapply in_assoc_del. exact Hin.
    + apply assoc_get_In in Ev. apply H3 in Ev. unfold aval_ok in *. cbn [snd fst] in *.
      destruct v as [s|l|m|ms]; auto.
      unfold named_needs.
      unfold def_wf in H1. apply andb_true_iff in H1. destruct H1 as [_ Hh]. rewrite Er in Hh.
      destruct (find_slot (f_def f) lf_key) as [a|]; [|apply loaded_all_nil].
      rewrite (no_needs_nil a s Hh). apply loaded_all_nil.
  - intro H; inversion H; subst; auto.
Qed.

(* L is a parameter and not p_loaded st because complete_cb changes p_loaded in the middle of a ';' (after_false):
   the pieces are proved for a fixed L, carried to the larger list by good_load, and [inv] reads L off the state *)
Definition good (L : list bytes) (st : pstate) : Prop :=
  p_loaded st = L /\ Forall (frame_ok L) (p_stack st) /\ Forall (node_ok L) (p_result st).

Definition res_good (L : list bytes) : mres -> Prop := mres_all (good L).
Ltac gs := cbn; unfold good; cbn; repeat split; auto.

Lemma up_loop_ok : forall L rest p e s' e',
  frame_ok L p -> Forall (frame_ok L) rest -> up_loop p rest e = (s', e') -> Forall (frame_ok L) s'.
Proof.
  induction rest as [|gp rest' IH]; intros p e s' e' Hp Hr; cbn [up_loop].
  - destruct (is_test p && iscomplete p None).
    + intro H; inversion H; subst. constructor.
    + destruct (is_test p && d_variable_args_nb (f_def p)); intro H; inversion H; subst; auto.
  - destruct (is_test p && iscomplete p None).
    + inversion Hr; subst. apply IH; auto. apply attach_into_ok; auto.
    + destruct (is_test p && d_variable_args_nb (f_def p)); intro H; inversion H; subst; auto.
Qed.

Lemma up_good : forall L st, good L st -> res_good L (up st).
Proof.
  intros L st (Hl & Hs & Hr). unfold up. destruct (p_stack st) as [|cur rest] eqn:Es; cbn; auto.
  destruct (negb _); cbn; auto.
  inversion Hs as [|? ? Hcur Hrest]; subst.
  destruct rest as [|parent rest']; cbn.
  - unfold good; cbn. split; auto. split; auto. apply Forall_app. split; auto.
    constructor; auto. apply frame_node_ok; auto.
  - destruct (up_loop _ _ _) as [s' e'] eqn:Eu; cbn. unfold good; cbn. split; auto. split; auto.
    inversion Hrest; subst. eapply up_loop_ok; [| |exact Eu]; auto. apply attach_into_ok; auto.
Qed.

Lemma simple_placeholder : simple placeholder.
Proof. exact I. Qed.

Lemma cc_loop_good : forall rest cur st,
  Forall (node_ok (p_loaded st)) (p_result st) ->
  frame_ok (p_loaded st) cur -> Forall (frame_ok (p_loaded st)) rest ->
  res_good (p_loaded st) (cc_loop cur rest st).
Proof.
  induction rest as [|parent rest' IH]; intros cur st Hr Hc Hrest; cbn [cc_loop].
  - gs.
  - inversion Hrest; subst.
    assert (Hp1 : frame_ok (p_loaded st) (attach_into cur parent)) by (apply attach_into_ok; auto).
    destruct (is_control _ || is_test _).
    + destruct (iscomplete _ None).
      * destruct (is_control _).
        -- gs.
        -- apply IH; auto.
      * destruct (check_next_arg _ _ _ _ _ _) as [p2 slot| | |] eqn:Ec; cbn; auto.
        -- assert (Hp2 : frame_ok (p_loaded st) p2).
           { eapply cna_frame_ok; [exact Hp1|apply simple_placeholder|exact Ec]. }
           destruct (negb _).
           ++ destruct (d_variable_args_nb _); gs.
           ++ apply IH; auto.
        -- gs.
    + apply IH; auto.
Qed.

Lemma check_completion_good : forall L st b, good L st -> res_good L (check_completion st b).
Proof.
  intros L st b (Hl & Hs & Hr). subst L. unfold check_completion.
  destruct (p_stack st) as [|cur rest] eqn:Es; cbn; auto.
  destruct (negb _); cbn.
  - unfold good. rewrite Es. auto.
  - destruct (is_action cur || _).
    + cbn. destruct b; unfold good; cbn; rewrite Es; auto.
    + inversion Hs; subst. apply cc_loop_good; auto.
Qed.

Lemma pop_bracket_good : forall L st b st1, good L st -> pop_bracket st b = inl st1 -> good L st1.
Proof.
  intros L st b st1 Hg. unfold pop_bracket. destruct (p_brackets st); try discriminate.
  destruct (bracket_eqb _ _); try discriminate. intro H; inversion H; subst. exact Hg.
Qed.

Lemma replace_top_good : forall L st cur rest f,
  good L st -> p_stack st = cur :: rest -> frame_ok L f -> good L (replace_top f st).
Proof.
  intros L st cur rest f (Hl & Hs & Hr) Es Hf. unfold replace_top. rewrite Es.
  unfold good; cbn. rewrite Es in Hs. inversion Hs; subst. auto.
Qed.

Lemma lift_cna_good : forall L st cur rest t v add k,
  good L st -> p_stack st = cur :: rest -> simple v ->
  (forall st2, good L st2 -> res_good L (k st2)) ->
  res_good L (lift_cna (check_next_arg cur t v add true L) st k).
Proof.
  intros L st cur rest t v add k Hg Es Hv Hk.
  destruct (check_next_arg cur t v add true L) as [f slot| | |] eqn:Ec; cbn; auto.
  apply Hk. eapply replace_top_good; eauto.
  eapply cna_frame_ok; [|exact Hv|exact Ec].
  destruct Hg as (_ & Hs & _). rewrite Es in Hs. inversion Hs; auto.
Qed.

Lemma m_stringlist_good : forall L st t, good L st -> res_good L (m_stringlist st t).
Proof.
  intros L st t Hg. unfold m_stringlist. destruct (p_stack st) as [|cur rest] eqn:Es; cbn; auto.
  destruct (t_kind t); cbn; auto.
  - destruct (pop_bracket st BRBracket) as [st1|e] eqn:E; cbn; auto.
    pose proof (pop_bracket_good _ _ _ _ Hg E) as Hg1.
    assert (Es1 : p_stack st1 = cur :: rest).
    { revert E. unfold pop_bracket. destruct (p_brackets st); try discriminate.
      destruct (bracket_eqb _ _); try discriminate. intro H; inversion H; subst. exact Es. }
    destruct Hg1 as (Hl1 & Hs1 & Hr1). rewrite Hl1.
    eapply lift_cna_good; eauto.
    + unfold good; auto.
    + exact I.
    + intros st2 Hg2. apply check_completion_good. exact Hg2.
  - destruct (negb _); cbn; auto.
Qed.

Lemma m_argument_good : forall L st t, good L st -> res_good L (m_argument st t).
Proof.
  intros L st t Hg. unfold m_argument. destruct (p_stack st) as [|cur rest] eqn:Es; cbn; auto.
  assert (Hl : p_loaded st = L) by apply Hg.
  assert (Hcur : frame_ok L cur).
  { destruct Hg as (_ & Hs & _). rewrite Es in Hs. inversion Hs; auto. }
  assert (Hre : res_good L (m_argument_reassign cur st)).
  { unfold m_argument_reassign. destruct (d_non_deterministic_args _); cbn; auto.
    destruct (reassign_arguments cur) as [cur'|] eqn:Er; cbn; auto.
    assert (good L (replace_top cur' st)).
    { eapply replace_top_good; eauto. eapply reassign_ok; eauto. }
    destruct (negb _); cbn; auto. }
  rewrite Hl.
  (* by kind: '{' and ',' (Hre); numbers and tags; strings; the rest hands back st or opens a list *)
  destruct (t_kind t); cbn; auto;
    try exact Hre;
    try (eapply lift_cna_good; eauto; exact I);
    try (destruct (negb (utf8_valid _)); cbn; auto; eapply lift_cna_good; eauto; exact I).
Qed.

Lemma gci_frame_ok : forall T L name d a,
  wf_tables T = true -> get_command_instance T L name = inl d -> frame_ok L (new_frame d a).
Proof.
  intros T L name d a Hw H. apply new_frame_ok.
  - exact (gci_forallb def_wf _ _ _ _ Hw H).
  - eapply gci_gate_all; eauto.
Qed.

Lemma m_arguments_default_good : forall L st t, good L st -> res_good L (m_arguments_default st t).
Proof.
  intros L st t Hg. unfold m_arguments_default.
  pose proof (m_argument_good L st t Hg) as H. destruct (m_argument st t) as [s|s|s|e|]; cbn in *; auto.
  - apply check_completion_good. exact H.
  - pose proof (check_completion_good L s false H) as H'.
    destruct (check_completion s false); cbn in *; auto.
Qed.

Lemma m_arguments_good : forall T L st t,
  wf_tables T = true -> good L st -> res_good L (m_arguments T st t).
Proof.
  intros T L st t Hw Hg. rewrite m_arguments_eq.
  destruct (t_kind t); try (apply m_arguments_default_good; exact Hg); cbn; auto.
  - destruct (pop_bracket st BRParen) as [st1|e] eqn:E; cbn; auto.
    apply up_good. eapply pop_bracket_good; eauto.
  - unfold m_arguments_test. destruct (p_stack st) as [|cur rest] eqn:Es; cbn; auto.
    assert (Hl : p_loaded st = L) by apply Hg. rewrite Hl.
    destruct (get_command_instance T L (t_val t)) as [d|e] eqn:Eg; cbn; auto.
    destruct (d_type d); cbn; auto.
    destruct (check_next_arg cur TyTest placeholder true true L) as [cur' slot| | |] eqn:Ec; cbn; auto.
    apply check_completion_good.
    assert (Hcur : frame_ok L cur).
    { destruct Hg as (_ & Hs & _). rewrite Es in Hs. inversion Hs; auto. }
    assert (Hcur' : frame_ok L cur').
    { eapply cna_frame_ok; [exact Hcur|apply simple_placeholder|exact Ec]. }
    pose proof (replace_top_good L st cur rest cur' Hg Es Hcur') as (Hl1 & Hs1 & Hr1).
    unfold good; cbn. split; auto. split; auto. constructor; auto.
    eapply gci_frame_ok; eauto.
Qed.

Definition inv (st : pstate) : Prop := good (p_loaded st) st.

Definition needs_res_inv : mres -> Prop := mres_all inv.
Lemma good_inv : forall L st, good L st -> inv st.
Proof. intros L st H. unfold inv. destruct H as (Hl & H). rewrite Hl. split; auto. Qed.

Lemma res_good_inv : forall L r, res_good L r -> needs_res_inv r.
Proof. intros L r H. destruct r; cbn in *; auto; eapply good_inv; eauto. Qed.

Lemma good_load : forall L st items,
  good L st -> good (load_exts items L) (with_loaded (load_exts items L) st).
Proof.
  intros L st items (Hl & Hs & Hr). unfold good; cbn. split; auto.
  assert (Hm : forall e, mem e L = true -> mem e (load_exts items L) = true)
    by (intros e He; apply load_exts_mem; exact He).
  split.
  - eapply Forall_impl; [|exact Hs]. intros f Hf. eapply frame_ok_mono; eauto.
  - eapply Forall_impl; [|exact Hr]. intros n Hn. eapply node_ok_mono; eauto.
Qed.

Lemma after_false_inv : forall t s, inv s -> needs_res_inv (after_false t s).
Proof.
  intros t s His. unfold after_false. destruct (t_kind t); cbn; auto.
  - destruct (p_stack s); cbn; auto. destruct (_ && _); cbn; auto.
  - destruct (p_stack s) as [|cur rest]; cbn; auto.
    destruct (is_test cur || _); cbn; auto.
    destruct (pending_param cur); cbn; auto.
    pose proof (check_completion_good (p_loaded s) (with_cstate CNone s) false His) as Hc.
    destruct (check_completion (with_cstate CNone s) false) as [s2|s2|s2|e|]; cbn in *; auto;
      [|eapply good_inv; exact Hc].
    pose proof (complete_cb_cases s2) as C.
    destruct (complete_cb s2) as [s3|s3|s3|e|]; cbn; auto; try contradiction.
    destruct C as [->|(f & rest' & items & _ & _ & _ & ->)]; eapply res_good_inv; apply up_good; [exact Hc|].
    assert (Hl2 : p_loaded s2 = p_loaded s) by apply Hc. rewrite Hl2. apply good_load. exact Hc.
Qed.

Lemma on_false_inv : forall L t r, res_good L r -> needs_res_inv (on_false t r).
Proof.
  intros L t [s|s|s|e|] Hr; cbn in *; auto; try (eapply good_inv; exact Hr).
  apply after_false_inv. eapply good_inv; exact Hr.
Qed.

Lemma m_command_inv : forall T st t, wf_tables T = true -> inv st -> needs_res_inv (m_command T st t).
Proof.
  intros T st t Hw Hi. rewrite m_command_eq. destruct (p_cstate st).
  - unfold m_command_none. destruct (t_kind t); cbn; auto.
    + destruct (pop_bracket st BRCBracket) as [st1|e] eqn:E; cbn; auto.
      pose proof (up_good _ _ (pop_bracket_good _ _ _ _ Hi E)) as Hu.
      destruct (up st1); cbn in *; auto; eapply good_inv; exact Hu.
    + destruct (get_command_instance _ _ _) as [d|e] eqn:Eg; cbn; auto.
      assert (Hnf : forall a, frame_ok (p_loaded st) (new_frame d a)).
      { intro a. eapply gci_frame_ok; eauto. }
      destruct Hi as (Hl & Hs & Hr).
      destruct (d_type d) eqn:Ety; cbn; auto.
      * destruct (p_stack st) as [|cur rest] eqn:Es; cbn.
        -- destruct (d_accept_children d && has_arguments d); unfold inv, good; cbn; auto.
        -- destruct (d_accept_children (f_def cur)); cbn; auto.
           destruct (d_accept_children d && has_arguments d); unfold inv, good; cbn; auto.
      * destruct (p_stack st) as [|cur rest] eqn:Es; cbn.
        -- unfold inv, good; cbn; auto.
        -- destruct (d_accept_children (f_def cur)); cbn; auto.
           unfold inv, good; cbn; auto.
  - eapply on_false_inv. apply m_arguments_good; [exact Hw|exact Hi].
  - eapply on_false_inv. apply m_stringlist_good. exact Hi.
Qed.

Lemma needs_process_inv : forall T st t, wf_tables T = true -> inv st -> needs_res_inv (process T st t).
Proof.
  intros T st t Hw Hi. rewrite process_eq.
  assert (H : needs_res_inv (expect_then T st t)).
  { unfold expect_then. destruct (p_expected st) as [l|]; [|apply m_command_inv; auto].
    destruct (kind_mem _ _); cbn; auto. apply m_command_inv; auto. }
  destruct (t_kind t); try exact H; cbn; exact Hi.
Qed.

Inductive reachable (T : tables) : pstate -> Prop :=
| reach_init : reachable T p_init
| reach_true : forall st t st', reachable T st -> process T st t = MTrue st' -> reachable T st'
| reach_rewind : forall st t st', reachable T st -> process T st t = MRewind st' -> reachable T st'.

Theorem reachable_inv : forall T st, wf_tables T = true -> reachable T st -> inv st.
Proof.
  intros T st Hw H. induction H as [|st t st' Hr IH Hp|st t st' Hr IH Hp].
  - unfold inv, good; cbn. auto.
  - pose proof (needs_process_inv T st t Hw IH) as P. rewrite Hp in P. exact P.
  - pose proof (needs_process_inv T st t Hw IH) as P. rewrite Hp in P. exact P.
Qed.

Lemma run_tokens_accept : forall T fuel toks err endpos lastlen st r,
  reachable T st ->
  run_tokens fuel T toks err endpos lastlen st = Accept r ->
  exists st', reachable T st' /\ r = p_result st' /\ p_stack st' = [] /\
              p_brackets st' = [] /\ p_expected st' = None.
Proof.
  intros T. induction fuel as [|f IH]; intros toks err endpos lastlen st r Hr; [discriminate|].
  destruct toks as [|t ts].
  - rewrite run_tokens_S_nil. destruct err; [discriminate|].
    intro H. apply finish_accept in H. exists st. tauto.
  - rewrite run_tokens_S_cons. destruct (process T st t) as [s|s|s|e|] eqn:Ep; try discriminate.
    + apply IH. eapply reach_true; eauto.
    + apply IH. eapply reach_rewind; eauto.
Qed.

Theorem parse_accept_reachable : forall T text r,
  parse T text = Accept r ->
  exists st, r = p_result st /\ reachable T st /\ p_stack st = [] /\
             p_brackets st = [] /\ p_expected st = None.
Proof.
  intros T text r H. rewrite parse_run_tokens in H. apply run_tokens_accept in H; [|apply reach_init].
  destruct H as (st & H1 & H2 & H3). exists st. tauto.
Qed.

(* C07 (c): every extension needed anywhere in an accepted tree was loaded by a require *)
Theorem gate_accept : forall T text r,
  wf_tables T = true ->
  parse T text = Accept r ->
  exists st, reachable T st /\ r = p_result st /\
    forall fuel n e, In n r -> In e (needs fuel n) -> mem e (p_loaded st) = true.
Proof.
  intros T text r Hw H. apply parse_accept_reachable in H. destruct H as (st & -> & Hr & _).
  exists st. split; auto. split; auto.
  intros fuel n e Hn He. apply (reachable_inv T st Hw) in Hr. destruct Hr as (_ & _ & Hres).
  rewrite Forall_forall in Hres. apply (Hres n Hn fuel e He).
Qed.

Theorem wf_gen_tables : wf_tables gen_tables = true.
Proof. vm_compute. reflexivity. Qed.

Corollary gate_accept_gen : forall text r,
  parse gen_tables text = Accept r ->
  exists st, reachable gen_tables st /\ r = p_result st /\
    forall fuel n e, In n r -> In e (needs fuel n) -> mem e (p_loaded st) = true.
Proof. intros text r. apply gate_accept. apply wf_gen_tables. Qed.

(* where the loaded list of a reachable state comes from: it is built from [] by load_exts of
   the capabilities of commands whose completion hook is HRequire, in order *)
Inductive require_trace : list bytes -> Prop :=
| rt_nil : require_trace []
| rt_step : forall L f items,
    require_trace L -> d_complete (f_def f) = HRequire -> caps_of f items ->
    require_trace (load_exts items L).

Theorem reachable_require_trace : forall T st, reachable T st -> require_trace (p_loaded st).
Proof.
  intros T st H. induction H as [|st t st' Hr IH Hp|st t st' Hr IH Hp].
  - constructor.
  - apply process_loaded_true in Hp.
    destruct Hp as [->|(_ & st2 & f & rest & items & _ & _ & Hd & Hc & ->)]; auto.
    econstructor; eauto.
  - apply process_loaded_rewind in Hp.
    destruct Hp as [->|(_ & st2 & f & rest & items & _ & _ & Hd & Hc & ->)]; auto.
    econstructor; eauto.
Qed.

Corollary loaded_was_required : forall L e,
  require_trace L -> mem e L = true ->
  exists f items x, d_complete (f_def f) = HRequire /\ caps_of f items /\ In x items /\ e = strip_dq x.
Proof.
  intros L e H. induction H as [|L f items Ht IH Hd Hc]; intro Hm; [discriminate|].
  apply load_exts_only in Hm. destruct Hm as [Hm|(x & Hx & He)]; auto.
  exists f, items, x. auto.
Qed.

(* more fuel only finds more: "for every fuel" = "for every large enough fuel" *)
Lemma needs_mono : forall k n, incl (needs k n) (needs (S k) n).
Proof.
  induction k as [|k IH]; intros n e He; [destruct He|].
  destruct n as [d args extra ch c]. cbn [needs] in *.
  apply in_app_or in He. destruct He as [He|He]; [apply in_or_app; left; exact He|].
  apply in_or_app. right. apply in_app_or in He. destruct He as [He|He]; apply in_or_app.
  - left. apply in_flat_map in He. destruct He as ([name v] & Hin & He).
    apply in_flat_map. exists (name, v). split; auto.
    unfold arg_needs in *. cbn [snd fst] in *. destruct v as [s|l|m|ms]; auto.
    + apply IH. exact He.
    + apply in_flat_map in He. destruct He as (m & Hm & He).
      apply in_flat_map. exists m. split; auto. apply IH. exact He.
  - right. apply in_flat_map in He. destruct He as (m & Hm & He).
    apply in_flat_map. exists m. split; auto. apply IH. exact He.
Qed.

(* the definitions are not vacuous: the needs of an accepted script, and the three gates firing *)
Example needs_example :
  match parse gen_tables
          (bs "require [""fileinto"",""copy"",""relational""]; if header :count ""ge"" ""a"" ""1"" { fileinto :copy ""x""; }")
  with
  | Accept r => flat_map (needs 5) r = [bs "relational"; bs "fileinto"; bs "copy"]
  | _ => False
  end.
Proof. vm_compute. reflexivity. Qed.

Example gate_command_example :
  parse gen_tables (bs "fileinto ""x"";") = Reject (EExtNotLoaded (bs "fileinto")) 0 8.
Proof. vm_compute. reflexivity. Qed.

Example gate_tag_example :
  parse gen_tables (bs "require ""fileinto""; fileinto :copy ""x"";")
  = Reject (EExtNotLoaded (bs "copy")) 29 5.
Proof. vm_compute. reflexivity. Qed.

Example gate_value_example :
  parse gen_tables (bs "if header :count ""ge"" ""a"" ""1"" {}")
  = Reject (EExtNotLoaded (bs "relational")) 10 6.
Proof. vm_compute. reflexivity. Qed.

(* On the generated tables the two blind spots of the gate are empty: no required slot carries an
   a_extension (check_next_arg would not consult it), and no a_extension_values key is shadowed
   by a_values (__is_valid_value_for_arg would return before looking at it). *)
Definition slot_no_blind_spot (a : argdef) : bool :=
  (negb (a_required a) || match a_extension a with Some (_ :: _) => false | _ => true end)
  && match a_values a, a_extension_values a with
     | Some l, Some m => forallb (fun kv => negb (mem (fst kv) l)) m
     | _, _ => true
     end.

Theorem gen_tables_no_blind_spot :
  forallb (fun kd => forallb slot_no_blind_spot (d_args (snd kd))) gen_tables = true.
Proof. vm_compute. reflexivity. Qed.

(* commands owned by an extension (RFC 5228 fileinto/reject(5429)/envelope, 5173 body,
   5230 vacation, 5260 date, 5229 variables, 5232 imap4flags) *)
Definition frozen_commands : list (bytes * bytes) := [
  (bs "fileinto", bs "fileinto");
  (bs "reject", bs "reject");
  (bs "envelope", bs "envelope");
  (bs "body", bs "body");
  (bs "vacation", bs "vacation");
  (bs "date", bs "date");
  (bs "currentdate", bs "date");
  (bs "set", bs "variables");
  (bs "setflag", bs "imap4flags");
  (bs "addflag", bs "imap4flags");
  (bs "removeflag", bs "imap4flags");
  (bs "hasflag", bs "imap4flags")
].

(* (command, tag, extension): RFC 3894 copy, 5490 mailbox, 5232 imap4flags, 6131 vacation-seconds *)
Definition frozen_tags : list (bytes * bytes * bytes) := [
  (bs "fileinto", bs ":copy", bs "copy");
  (bs "redirect", bs ":copy", bs "copy");
  (bs "fileinto", bs ":create", bs "mailbox");
  (bs "fileinto", bs ":flags", bs "imap4flags");
  (bs "keep", bs ":flags", bs "imap4flags");
  (bs "vacation", bs ":seconds", bs "vacation-seconds")
].

(* match types owned by an extension (RFC 5231 relational, draft regex), for every test that
   takes a match type *)
Definition frozen_match_commands : list bytes :=
  [bs "header"; bs "address"; bs "envelope"; bs "body"; bs "hasflag"; bs "date"; bs "currentdate"].
Definition frozen_match_types : list (bytes * bytes) :=
  [(bs ":count", bs "relational"); (bs ":value", bs "relational"); (bs ":regex", bs "regex")].
Definition frozen_match : list (bytes * bytes * bytes) :=
  flat_map (fun c => map (fun te => (c, fst te, snd te)) frozen_match_types) frozen_match_commands.

Definition cmd_covered (T : tables) (ce : bytes * bytes) : bool :=
  match lookup_cmd T (fst ce) with
  | Some d => opt_beq (d_extension d) (Some (snd ce))
  | None => false
  end.

(* the slot gates [tag] by [ext], in a way check_next_arg really enforces: either the slot is
   optional, lists the tag among its values and belongs to ext; or the tag is not among its
   plain values and a_extension_values maps it to ext *)
Definition slot_covers (tag ext : bytes) (a : argdef) : bool :=
  let in_values := match a_values a with Some l => mem tag l | None => false end in
  (in_values && negb (a_required a) && opt_beq (a_extension a) (Some ext))
  || (negb in_values &&
      match a_extension_values a with
      | Some m => opt_beq (assoc_get tag m) (Some ext)
      | None => false
      end).

Definition tag_covered (T : tables) (e : bytes * bytes * bytes) : bool :=
  match lookup_cmd T (fst (fst e)) with
  | Some d => existsb (slot_covers (snd (fst e)) (snd e)) (d_args d)
  | None => false
  end.

Definition covers (T : tables) : bool :=
  forallb (cmd_covered T) frozen_commands
  && forallb (tag_covered T) (frozen_tags ++ frozen_match).

Theorem ext_table_covers_frozen : covers gen_tables = true.
Proof. vm_compute; reflexivity. Qed.

Lemma opt_beq_some : forall o x, opt_beq o (Some x) = true -> o = Some x.
Proof.
  intros [y|] x H; cbn in H; try discriminate. apply beq_eq in H. congruence.
Qed.

(* what a covered entry buys: the extension is among the needs of the slot / of the command,
   hence (gate_accept) loaded in every accepted script that uses it *)
Lemma slot_covers_needs : forall s c e a,
  slot_covers (lower s) (c :: e) a = true -> In (c :: e) (slot_needs a s).
Proof.
  intros s c e a H. unfold slot_covers in H. unfold slot_needs, own_ext, value_ext.
  apply in_or_app. apply orb_true_iff in H. destruct H as [H|H].
  - left. apply andb_true_iff in H. destruct H as [H H3]. apply andb_true_iff in H. destruct H as [_ H2].
    apply negb_true_iff in H2. rewrite H2. apply opt_beq_some in H3. rewrite H3. left. reflexivity.
  - right. apply andb_true_iff in H. destruct H as [H1 H2]. apply negb_true_iff in H1. rewrite H1.
    destruct (a_extension_values a) as [m|]; try discriminate.
    apply opt_beq_some in H2. rewrite H2. left. reflexivity.
Qed.

Lemma cmd_covered_needs : forall T k c e n,
  cmd_covered T (k, c :: e) = true -> lookup_cmd T k = Some (node_def n) -> In (c :: e) (needs 1 n).
Proof.
  intros T k c e n H Hl. unfold cmd_covered in H. cbn [fst snd] in H. rewrite Hl in H.
  apply opt_beq_some in H. destruct n as [d args extra ch cm]. cbn [node_def] in H.
  cbn [needs]. apply in_or_app. left. rewrite H. left. reflexivity.
Qed.

(* end to end for the command entries of the frozen table: an accepted script whose tree contains,
   at top level, a command of the table has loaded the command's extension *)
Corollary frozen_command_gate : forall T text r n k ext,
  wf_tables T = true -> covers T = true ->
  parse T text = Accept r -> In n r ->
  In (k, ext) frozen_commands -> lookup_cmd T k = Some (node_def n) ->
  exists st, reachable T st /\ r = p_result st /\ mem ext (p_loaded st) = true.
Proof.
  intros T text r n k ext Hw Hc Hp Hn Hk Hl.
  destruct (gate_accept T text r Hw Hp) as (st & Hr & He & Hall).
  exists st. split; auto. split; auto.
  unfold covers in Hc. apply andb_true_iff in Hc. destruct Hc as [Hc _].
  rewrite forallb_forall in Hc. specialize (Hc _ Hk).
  assert (Hne : forallb (fun ce => negb (beq (snd ce) [])) frozen_commands = true) by reflexivity.
  rewrite forallb_forall in Hne. specialize (Hne _ Hk). destruct ext as [|c e]; [discriminate|].
  eapply (Hall 1 n); auto. eapply cmd_covered_needs; eauto.
Qed.

(* ... and for tags / match types: a top-level command of an accepted script that stores the str
   [s] under a slot covering lower(s) by a non-empty extension has that extension loaded (nested
   tests and children are reached by [needs] with more fuel) *)
Corollary covered_tag_gate : forall T text r n name s a c e,
  wf_tables T = true ->
  parse T text = Accept r -> In n r ->
  In (name, VStr s) (node_args n) -> find_slot (node_def n) name = Some a ->
  slot_covers (lower s) (c :: e) a = true ->
  exists st, reachable T st /\ r = p_result st /\ mem (c :: e) (p_loaded st) = true.
Proof.
  intros T text r n name s a c e Hw Hp Hn Harg Hslot Hcov.
  destruct (gate_accept T text r Hw Hp) as (st & Hr & He & Hall).
  exists st. split; auto. split; auto.
  apply (Hall 1 n); auto. destruct n as [d args extra ch cm]. cbn [node_args node_def] in *.
  cbn [needs]. apply in_or_app. right. apply in_or_app. left.
  apply in_flat_map. exists (name, VStr s). split; auto.
  unfold arg_needs, named_needs. cbn [snd fst]. rewrite Hslot.
  apply slot_covers_needs. exact Hcov.
Qed.

Print Assumptions process_loaded_true.
Print Assumptions process_loaded_rewind.
Print Assumptions process_loaded_incl.
Print Assumptions gci_gate.
Print Assumptions cna_gate.
Print Assumptions reachable_inv.
Print Assumptions parse_accept_reachable.
Print Assumptions gate_accept.
Print Assumptions gate_accept_gen.
Print Assumptions reachable_require_trace.
Print Assumptions loaded_was_required.
Print Assumptions ext_table_covers_frozen.
Print Assumptions frozen_command_gate.
Print Assumptions covered_tag_gate.
