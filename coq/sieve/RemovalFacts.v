(* RemovalFacts.v — C07, removal direction, for scripts: the two scripts start with commands of the grammar (the
   `require` commands, written differently) and continue with the same tokens. *)
From Coq Require Import List NArith Bool Arith Lia.
From Coq Require String.
Import String.StringSyntax.
From SV Require Import lib.Bytes sieve.Lexer sieve.Tables sieve.ArgCheck sieve.ArgSpec sieve.Machine
  sieve.GateFacts sieve.PositionFacts sieve.TotalFacts sieve.CompleteFacts sieve.CompleteTree sieve.LessLoaded gen.GenTables.
Import ListNotations.
Local Close Scope N_scope.
Local Open Scope string_scope.

Lemma names_with_comments : forall ns, names (map (fun n => with_comments n []) ns) = names ns.
Proof. induction ns as [|[d a e k c] ns IH]; [reflexivity|]. cbn [map names] in *. unfold names in *. cbn [map]. rewrite IH. reflexivity. Qed.

Lemma prefixes_related : forall T cs cs' ns ns' L L',
  twf_tables T = true ->
  wf_cmds T [] None cs ns L -> wf_cmds T [] None cs' ns' L' ->
  LessLoaded.sub L' L -> names ns = names ns' ->
  exists stA stB, steps T p_init (flat_map toks_cmd cs) = Some stA /\
                  steps T p_init (flat_map toks_cmd cs') = Some stB /\ simst stA stB.
Proof.
  intros T cs cs' ns ns' L L' HT W W' Hs Hn.
  assert (Rdy : ready p_init) by (repeat split).
  destruct (run_cmds T HT [] None cs ns L W p_init Rdy eq_refl eq_refl) as (stA & SA & CA & EA & LA & BA & PA).
  destruct (run_cmds T HT [] None cs' ns' L' W' p_init Rdy eq_refl eq_refl) as (stB & SB & CB & EB & LB & BB & PB).
  exists stA, stB. split; [exact SA|]. split; [exact SB|].
  unfold place_of in PA, PB. cbn [p_init p_stack p_hash p_result] in PA, PB. rewrite fold_emit1_top in PA, PB. cbn [app] in PA, PB.
  injection PA as PA1 PA2 PA3. injection PB as PB1 PB2 PB3.
  destruct stA as [stkA csA clA exA brA ldA hsA rsA]. destruct stB as [stkB csB clB exB brB ldB hsB rsB].
  cbn in *. subst.
  exists clB, L', (map (fun n => with_comments n []) ns'). split; [reflexivity|].
  split; [exact Hs|]. split; [cbn; rewrite !names_with_comments; exact Hn|cbn; discriminate].
Qed.

(* C07, removal direction, for two scripts that begin with commands of the grammar -- in practice `require` commands
   listing different extensions -- and continue with the same tokens *)
Theorem removal_rejects : forall T full red pre pre' rest rest' cs cs' ns ns' L L' r,
  twf_tables T = true ->
  snd (lex full) = None -> snd (lex red) = None ->
  fst (lex full) = pre ++ rest -> fst (lex red) = pre' ++ rest' -> Forall2 tok_eq rest rest' ->
  map strip_pos pre = flat_map toks_cmd cs -> map strip_pos pre' = flat_map toks_cmd cs' ->
  wf_cmds T [] None cs ns L -> wf_cmds T [] None cs' ns' L' ->
  LessLoaded.sub L' L -> names ns = names ns' ->
  parse T full = Accept r ->
  (exists r', parse T red = Accept r' /\ names r = names r') \/
  (exists x t' s s', In t' rest' /\ parse T red = Reject (EExtNotLoaded x) (t_pos t') (length (t_val t')) /\
                     simst s s' /\ lacks (p_loaded s) (p_loaded s') x).
Proof.
  intros T full red pre pre' rest rest' cs cs' ns ns' L L' r HT El El' Et Et' Hrest Hp Hp' W W' Hs Hn Hacc.
  destruct (prefixes_related T cs cs' ns ns' L L' HT W W' Hs Hn) as (stA & stB & SA & SB & S).
  rewrite <- Hp in SA. rewrite <- Hp' in SB.
  exact (removal_dichotomy T full red pre pre' rest rest' stA stB r HT El El' Et Et' Hrest SA SB S Hacc).
Qed.

(* an instance on the tables generated from /repo: `copy` removed from the require *)
Definition ex_full : bytes := bs "require [""fileinto"", ""copy""]; if true { fileinto :copy ""x""; }".
Definition ex_red : bytes := bs "require [""fileinto""]; if true { fileinto :copy ""x""; }".

Example ex_removal :
  (exists r, parse gen_tables ex_full = Accept r) /\
  parse gen_tables ex_red = Reject (EExtNotLoaded (bs "copy")) 41 5.
Proof. split; [eexists|]; vm_compute; reflexivity. Qed.

Print Assumptions removal_rejects.
