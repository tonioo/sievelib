(* CanonFacts.v — every legal argument list has a canonical reordering with the same meaning (C04 for scripts
   whose arguments are not written in definition order).

   If [legal d L args = LComplete am em] (ArgSpec: optional tag groups in any order, possibly repeated, then the
   required positionals) then the arguments read off the maps [am] / [em] in DEFINITION order -- which is what
   Command.tosieve prints -- are again legal and give maps with the same content (same value for every key;
   only the insertion order differs).  Hence the printed form of any accepted command re-parses to an
   equivalent command, and printing that one gives the same text. *)
From Coq Require Import List NArith Bool Arith Lia.
From SV Require Import lib.Bytes lib.BytesFacts sieve.Lexer sieve.Tables sieve.ArgCheck sieve.ArgSpec sieve.Machine sieve.Printer
  sieve.ArgCheckFacts sieve.GateFacts sieve.TotalFacts sieve.LexerFacts sieve.CompleteFacts sieve.CompleteTree
  sieve.RenderFacts sieve.PrintTree.
Import ListNotations.
Local Close Scope N_scope.

Definition meq {V : Type} (a b : list (bytes * V)) : Prop := forall k, assoc_get k a = assoc_get k b.

Lemma meq_refl : forall (V : Type) (a : list (bytes * V)), meq a a.
Proof. intros V a k. reflexivity. Qed.

Lemma meq_sym : forall (V : Type) (a b : list (bytes * V)), meq a b -> meq b a.
Proof. intros V a b H k. symmetry. apply H. Qed.

Definition keys {V : Type} (m : list (bytes * V)) : list bytes := map fst m.

Lemma get_some_in : forall (V : Type) k (m : list (bytes * V)) v, assoc_get k m = Some v -> In k (keys m).
Proof. exact BytesFacts.get_some_in. Qed.

Lemma meq_set : forall (V : Type) k (v : V) a b, meq a b -> meq (assoc_set k v a) (assoc_set k v b).
Proof.
  intros V k v a b H x. destruct (beq x k) eqn:E.
  - apply beq_eq in E. subst. rewrite !get_set_same. reflexivity.
  - apply beq_neq in E. rewrite !get_set_other by exact E. apply H.
Qed.

(* printable and acceptable by the machine (strings valid UTF-8) *)
Definition argP (p : argument) : Prop := arg_pr p /\ arg_ok p.

Lemma argP_of : forall args, Forall arg_pr args -> Forall arg_ok args -> Forall argP args.
Proof.
  intros args H1 H2. apply Forall_forall. intros x Hx. rewrite Forall_forall in H1, H2. split; auto.
Qed.

Lemma argP_ok : forall args, Forall argP args -> Forall arg_ok args.
Proof. intros args H. apply Forall_forall. intros x Hx. rewrite Forall_forall in H. apply (H x Hx). Qed.


Lemma nodup_names_inj : forall (l : list argdef), NoDup (map a_name l) ->
  forall s s', In s l -> In s' l -> a_name s = a_name s' -> s = s'.
Proof.
  induction l as [|a l IH]; intros H s s' Hs Hs' E; [destruct Hs|].
  cbn in H. inversion H as [|x xs Hx Hxs]; subst.
  destruct Hs as [<-|Hs]; destruct Hs' as [<-|Hs'].
  - reflexivity.
  - exfalso. apply Hx. rewrite E. apply in_map. exact Hs'.
  - exfalso. apply Hx. rewrite <- E. apply in_map. exact Hs.
  - apply (IH Hxs s s' Hs Hs' E).
Qed.

Lemma nodup_app_l : forall (A : Type) (a b : list A), NoDup (a ++ b) -> NoDup a.
Proof.
  induction a as [|x a IH]; intros b H; [constructor|]. cbn in H. inversion H as [|y l Hy Hl]; subst.
  constructor; [intro X; apply Hy; apply in_or_app; left; exact X|apply (IH b Hl)].
Qed.

Lemma nodup_app_disjoint : forall (A : Type) (a b : list A) x, NoDup (a ++ b) -> In x a -> ~ In x b.
Proof.
  induction a as [|y a IH]; intros b x H Hin; [destruct Hin|]. cbn in H. inversion H as [|z l Hz Hl]; subst.
  destruct Hin as [<-|Hin]; [intro X; apply Hz; apply in_or_app; right; exact X|apply (IH b x Hl Hin)].
Qed.

Lemma nodup_app_r : forall (A : Type) (a b : list A), NoDup (a ++ b) -> NoDup b.
Proof. induction a as [|x a IH]; intros b H; [exact H|]. cbn in H. inversion H; subst. apply IH. assumption. Qed.

Lemma get_del_none : forall (V : Type) k (m : list (bytes * V)), assoc_get k m = None -> assoc_del k m = m.
Proof.
  induction m as [|[k' v'] t IH]; intro H; cbn in *; [reflexivity|].
  destruct (beq k k'); [discriminate|]. rewrite IH by exact H. reflexivity.
Qed.

Lemma find_def_in : forall l s, NoDup (map a_name l) -> In s l -> find_def l (a_name s) = Some s.
Proof.
  induction l as [|a l IH]; intros s H Hin; [destruct Hin|]. cbn [find_def].
  cbn in H. inversion H as [|x xs Hx Hxs]; subst. destruct Hin as [<-|Hin]; [rewrite beq_refl; reflexivity|].
  destruct (beq (a_name a) (a_name s)) eqn:E.
  - apply beq_eq in E. exfalso. apply Hx. rewrite E. apply in_map. exact Hin.
  - apply IH; assumption.
Qed.

Section Canon.
  Variables (d : cmddef) (opts reqs : list argdef) (L : list bytes).
  Hypothesis Hargs : d_args d = opts ++ reqs.
  Hypothesis Hopts : forallb opt_slot_ok opts = true.
  Hypothesis Hreqs : forallb req_slot_ok reqs = true.
  Hypothesis Hnd : NoDup (map a_name (opts ++ reqs)).

  Definition ext_ok (s : argdef) : Prop :=
    match a_extension s with Some (c :: e) => mem (c :: e) L = true | _ => True end.

  Definition slot_inv (am em : list (bytes * aval)) (s : argdef) : Prop :=
    match assoc_get (a_name s) am with
    | None => assoc_get (a_name s) em = None
    | Some (VStr v) =>
        find_opt opts v L = Some (s, SelYes) /\ ext_ok s /\ tag_ok v = true /\
        match takes_param s v with
        | None => assoc_get (a_name s) em = None
        | Some ex => exists p, assoc_get (a_name s) em = Some (snd p) /\ param_ok ex p = true /\ argP p
        end
    | Some _ => False
    end.

  (* what phase 1 of [legal_opt] keeps true of the maps while it consumes tag groups *)
  Definition Inv (am em : list (bytes * aval)) : Prop :=
    NoDup (keys am) /\ NoDup (keys em) /\
    (forall k, In k (keys am) -> In k (map a_name opts)) /\
    (forall k, In k (keys em) -> In k (map a_name opts)) /\
    Forall (slot_inv am em) opts.

  Lemma Inv_nil : Inv [] [].
  Proof.
    unfold Inv. cbn. split; [constructor|]. split; [constructor|]. split; [intros k []|]. split; [intros k []|].
    apply Forall_forall. intros s _. unfold slot_inv. reflexivity.
  Qed.

  Lemma opt_names_nodup : NoDup (map a_name opts).
  Proof. rewrite map_app in Hnd. apply (nodup_app_l _ _ _ Hnd). Qed.

  Lemma same_name_same_slot : forall s s', In s opts -> In s' opts -> a_name s = a_name s' -> s = s'.
  Proof. apply nodup_names_inj. apply opt_names_nodup. Qed.

  Lemma Inv_step : forall am em s v (po : option argument),
    Inv am em -> In s opts -> find_opt opts v L = Some (s, SelYes) -> ext_ok s -> tag_ok v = true ->
    match takes_param s v, po with
    | None, None => True
    | Some ex, Some p => param_ok ex p = true /\ argP p
    | _, _ => False
    end ->
    Inv (assoc_set (a_name s) (VStr v) am)
        (match po with Some p => assoc_set (a_name s) (snd p) (assoc_del (a_name s) em) | None => assoc_del (a_name s) em end).
  Proof.
    intros am em s v po (N1 & N2 & K1 & K2 & F) Hs Hf He Ht Hp.
    assert (Hem' : NoDup (keys (match po with Some p => assoc_set (a_name s) (snd p) (assoc_del (a_name s) em) | None => assoc_del (a_name s) em end))).
    { destruct po; [apply nodup_set|]; apply nodup_del; exact N2. }
    split; [apply nodup_set; exact N1|]. split; [exact Hem'|].
    split.
    { intros k Hk. destruct (proj1 (keys_set _ _ _ _ _) Hk) as [->|Hk']; [apply in_map; exact Hs|apply K1; exact Hk']. }
    split.
    { intros k Hk. destruct po as [p|].
      - destruct (proj1 (keys_set _ _ _ _ _) Hk) as [->|Hk']; [apply in_map; exact Hs|apply K2; eapply keys_del; exact Hk'].
      - apply K2. eapply keys_del. exact Hk. }
    apply Forall_forall. intros s' Hs'. rewrite Forall_forall in F. specialize (F s' Hs').
    destruct (list_eq_dec N.eq_dec (a_name s') (a_name s)) as [E|E].
    - assert (s' = s) by (apply same_name_same_slot; assumption). subst s'.
      unfold slot_inv. rewrite get_set_same. split; [exact Hf|]. split; [exact He|]. split; [exact Ht|].
      destruct (takes_param s v) as [ex|]; destruct po as [p|]; try contradiction.
      + exists p. rewrite get_set_same. destruct Hp. auto.
      + apply get_del_same. exact N2.
    - unfold slot_inv in *. rewrite get_set_other by exact E.
      assert (Hem : assoc_get (a_name s') (match po with Some p => assoc_set (a_name s) (snd p) (assoc_del (a_name s) em) | None => assoc_del (a_name s) em end)
                    = assoc_get (a_name s') em).
      { destruct po; [rewrite get_set_other by exact E|]; apply get_del_other; exact E. }
      rewrite Hem. exact F.
  Qed.

  Definition stops (rargs : list argument) : Prop :=
    match rargs with
    | (TyTag, VStr v) :: _ => find_opt opts v L = None
    | _ => True
    end.

  Lemma legal_opt_stops : forall f rargs a e, stops rargs -> legal_opt f opts reqs rargs L a e = legal_req reqs rargs L a e.
  Proof.
    intros f rargs a e H. destruct f; [reflexivity|]. cbn [legal_opt].
    destruct rargs as [|[t v] r]; [reflexivity|]. destruct t; try reflexivity. destruct v; try reflexivity.
    cbn in H. rewrite H. reflexivity.
  Qed.

  Lemma legal_opt_tag_ext : forall f s v rest am em am' em',
    find_opt opts v L = Some (s, SelYes) ->
    legal_opt (S f) opts reqs ((TyTag, VStr v) :: rest) L am em = LComplete am' em' -> ext_ok s.
  Proof.
    intros f s v rest am em am' em' Hf H. cbn [legal_opt] in H. rewrite Hf in H. unfold ext_ok.
    destruct (a_extension s) as [[|c e]|]; try exact I. destruct (mem (c :: e) L); [reflexivity|discriminate].
  Qed.

  Lemma legal_opt_prefix : forall fuel args am0 em0 am em,
    Inv am0 em0 -> Forall argP args -> length args <= fuel ->
    legal_opt fuel opts reqs args L am0 em0 = LComplete am em ->
    exists am1 em1 rargs,
      Inv am1 em1 /\ legal_req reqs rargs L am1 em1 = LComplete am em /\ stops rargs /\ Forall argP rargs.
  Proof.
    induction fuel as [|fuel IH]; intros args am0 em0 am em HI Hpr Hlen H.
    - destruct args; [|cbn in Hlen; lia]. cbn [legal_opt] in H. exists am0, em0, []. cbn. auto.
    - assert (Hcase : stops args \/ exists v args' s sel, args = (TyTag, VStr v) :: args' /\ find_opt opts v L = Some (s, sel)).
      { destruct args as [|[[] [v|vs|n|ns]] args']; try (left; exact I).
        destruct (find_opt opts v L) as [[s sel]|] eqn:Ef; [right; eauto 6|left; exact Ef]. }
      destruct Hcase as [Hst|(v & args' & s & sel & -> & Ef)].
      { rewrite (legal_opt_stops _ _ _ _ Hst) in H. exists am0, em0, args. auto. }
      destruct (find_opt_sound _ _ _ _ _ Ef) as (Hsel & Hin).
      destruct sel as [| |e]; [|congruence|cbn [legal_opt] in H; rewrite Ef in H; discriminate].
      inversion Hpr as [|a0 l0 Ha0' Hl0]; subst. pose proof (proj1 Ha0') as Ha0. cbn in Ha0. cbn [length] in Hlen.
      pose proof (legal_opt_tag_ext _ _ _ _ _ _ _ _ Ef H) as Hext.
      rewrite (legal_opt_tag fuel opts reqs s v args' L am0 em0 Ef Hext) in H. unfold tag_cont in H. cbv zeta in H.
      destruct (takes_param s v) as [ex|] eqn:Etp.
      + destruct args' as [|p args'']; [discriminate|]. destruct (param_ok ex p) eqn:Epo; [|discriminate].
        inversion Hl0 as [|p0 l1 Hp0 Hl1]; subst.
        refine (IH args'' _ _ am em _ Hl1 _ H); [|cbn in Hlen; lia].
        apply (Inv_step am0 em0 s v (Some p) HI Hin Ef Hext Ha0). rewrite Etp. auto.
      + refine (IH args' _ _ am em _ Hl0 _ H); [|lia].
        apply (Inv_step am0 em0 s v None HI Hin Ef Hext Ha0). rewrite Etp. exact I.
  Qed.

  (* the extra map stores a parameter without its type: the type of a printed parameter is read off its first byte
     (right for [arg_pr] values: ty_of_pr) *)
  Definition ty_of (ev : aval) : atype :=
    match ev with
    | VList _ => TyStringList
    | VStr s => match s with
                | 34%N :: _ => TyString
                | 58%N :: _ => TyTag
                | c :: _ => if is_digit c then TyNumber else TyString
                | [] => TyString
                end
    | _ => TyString
    end.

  Lemma ty_of_cons : forall c t,
    ty_of (VStr (c :: t)) = if (c =? 34)%N then TyString else if (c =? 58)%N then TyTag else if is_digit c then TyNumber else TyString.
  Proof.
    intros c t. unfold ty_of. destruct c as [|p]; [reflexivity|].
    do 6 (destruct p as [p|p|]; try reflexivity).
  Qed.

  Lemma ty_of_pr : forall p, arg_pr p -> ty_of (snd p) = fst p.
  Proof.
    intros [[] [s0|items|n0|ns0]] H; cbn in H; try contradiction; cbn [fst snd]; try reflexivity.
    - destruct (tag_ok_shape s0 H) as (r & -> & _). reflexivity.
    - destruct H as [H|(_ & Hm)].
      + destruct (exact_string_shape s0 H) as (body & -> & _). reflexivity.
      + destruct (ml_ok_shape s0 Hm) as (t & ->). reflexivity.
    - destruct H as (ds & q & -> & Hne & Hd & _). destruct ds as [|c ds]; [congruence|].
      cbn [forallb] in Hd. apply andb_true_iff in Hd as [Hc _]. cbn [app]. rewrite ty_of_cons, Hc.
      assert ((c =? 34)%N = false /\ (c =? 58)%N = false) as [E34 E58] by (clear - Hc; unfold is_digit in Hc; lia).
      rewrite E34, E58. reflexivity.
  Qed.

  Definition canon_slot (am em : list (bytes * aval)) (s : argdef) : list argument :=
    match assoc_get (a_name s) am with
    | Some (VStr v) =>
        (TyTag, VStr v) :: match takes_param s v, assoc_get (a_name s) em with
                           | Some _, Some ev => [(ty_of ev, ev)]
                           | _, _ => []
                           end
    | _ => []
    end.

  Definition canon_opts (am em : list (bytes * aval)) (os : list argdef) : list argument :=
    flat_map (canon_slot am em) os.

  (* what the canonical group of one slot does to the maps ([fold_left] of it: after the groups of [os]) *)
  Definition replay1 (am em : list (bytes * aval)) (ae : list (bytes * aval) * list (bytes * aval)) (s : argdef) :=
    match assoc_get (a_name s) am with
    | Some (VStr v) =>
        (assoc_set (a_name s) (VStr v) (fst ae),
         match takes_param s v, assoc_get (a_name s) em with
         | Some _, Some ev => assoc_set (a_name s) ev (assoc_del (a_name s) (snd ae))
         | _, _ => assoc_del (a_name s) (snd ae)
         end)
    | _ => ae
    end.

  (* the three states of an optional slot in maps that satisfy [Inv], with the arguments it stands for *)
  Inductive slot_view (am em : list (bytes * aval)) (s : argdef) : list argument -> Prop :=
  | sv_absent : assoc_get (a_name s) am = None -> assoc_get (a_name s) em = None -> slot_view am em s []
  | sv_tag : forall v, assoc_get (a_name s) am = Some (VStr v) -> assoc_get (a_name s) em = None ->
      find_opt opts v L = Some (s, SelYes) -> ext_ok s -> tag_ok v = true -> takes_param s v = None ->
      slot_view am em s [(TyTag, VStr v)]
  | sv_param : forall v ex p, assoc_get (a_name s) am = Some (VStr v) -> assoc_get (a_name s) em = Some (snd p) ->
      find_opt opts v L = Some (s, SelYes) -> ext_ok s -> tag_ok v = true -> takes_param s v = Some ex ->
      param_ok ex p = true -> argP p -> slot_view am em s [(TyTag, VStr v); p].

  Lemma canon_slot_view : forall am em s, Inv am em -> In s opts -> slot_view am em s (canon_slot am em s).
  Proof.
    intros am em s (_ & _ & _ & _ & F) Hs. rewrite Forall_forall in F. specialize (F s Hs).
    unfold slot_inv in F. unfold canon_slot.
    destruct (assoc_get (a_name s) am) as [[v|vs|n0|ns0]|] eqn:Ea; try contradiction; [|apply sv_absent; [exact Ea|exact F]].
    destruct F as (Hf & Hext & Htag & Hp). destruct (takes_param s v) as [ex|] eqn:Etp.
    - destruct Hp as (p & Hep & Hpo & Hpp). rewrite Hep, (ty_of_pr p (proj1 Hpp)), <- surjective_pairing.
      apply (sv_param am em s v ex p); assumption || reflexivity.
    - apply sv_tag; assumption || reflexivity.
  Qed.

  Lemma replay_run : forall am1 em1 os rargs fuel a e,
    Inv am1 em1 -> (forall s, In s os -> In s opts) -> stops rargs ->
    length (canon_opts am1 em1 os ++ rargs) <= fuel ->
    legal_opt fuel opts reqs (canon_opts am1 em1 os ++ rargs) L a e =
    legal_req reqs rargs L (fst (fold_left (replay1 am1 em1) os (a, e))) (snd (fold_left (replay1 am1 em1) os (a, e))).
  Proof.
    intros am1 em1 os. induction os as [|s os IH]; intros rargs fuel a e HI Hsub Hst Hlen.
    - cbn. apply legal_opt_stops. exact Hst.
    - assert (Hsub' : forall s0, In s0 os -> In s0 opts) by (intros s0 H0; apply Hsub; right; exact H0).
      unfold canon_opts in *. cbn [flat_map fold_left] in *. rewrite <- app_assoc in *. revert Hlen.
      destruct (canon_slot_view am1 em1 s HI (Hsub s (or_introl eq_refl)))
        as [Ea Ee|v Ea Ee Hf Hext Htag Etp|v ex p Ea Ee Hf Hext Htag Etp Hpo Hpp]; cbn [app length]; intro Hlen.
      + replace (replay1 am1 em1 (a, e) s) with (a, e) by (unfold replay1; rewrite Ea; reflexivity).
        apply IH; assumption.
      + destruct fuel as [|fuel]; [lia|]. rewrite (legal_opt_tag _ _ _ _ _ _ _ _ _ Hf Hext). unfold tag_cont. cbv zeta. rewrite Etp.
        replace (replay1 am1 em1 (a, e) s) with (assoc_set (a_name s) (VStr v) a, assoc_del (a_name s) e)
          by (unfold replay1; rewrite Ea, Etp; reflexivity).
        apply IH; try assumption. lia.
      + destruct fuel as [|fuel]; [lia|]. rewrite (legal_opt_tag _ _ _ _ _ _ _ _ _ Hf Hext). unfold tag_cont. cbv zeta. rewrite Etp, Hpo.
        replace (replay1 am1 em1 (a, e) s)
          with (assoc_set (a_name s) (VStr v) a, assoc_set (a_name s) (snd p) (assoc_del (a_name s) e))
          by (unfold replay1; rewrite Ea, Etp, Ee; reflexivity).
        apply IH; try assumption. lia.
  Qed.

  Definition agree_on (am1 em1 : list (bytes * aval)) (dn : list bytes) (a e : list (bytes * aval)) : Prop :=
    (forall k, In k dn -> assoc_get k a = assoc_get k am1 /\ assoc_get k e = assoc_get k em1) /\
    (forall k, ~ In k dn -> assoc_get k a = None /\ assoc_get k e = None).

  Lemma agree_on_extend : forall am1 em1 dn k a e a' e',
    agree_on am1 em1 dn a e -> ~ In k dn ->
    assoc_get k a' = assoc_get k am1 -> assoc_get k e' = assoc_get k em1 ->
    (forall k', k' <> k -> assoc_get k' a' = assoc_get k' a /\ assoc_get k' e' = assoc_get k' e) ->
    agree_on am1 em1 (dn ++ [k]) a' e'.
  Proof.
    intros am1 em1 dn k a e a' e' (J1 & J2) Hk Ha He Ho. split; intros k' Hk'.
    - apply in_app_or in Hk'. destruct Hk' as [Hk'|[<-|[]]]; [|split; assumption].
      assert (H : k' <> k) by (intro; subst; contradiction). destruct (Ho k' H) as (A & B). rewrite A, B. apply J1. exact Hk'.
    - assert (Hk1 : ~ In k' dn) by (intro X; apply Hk'; apply in_or_app; left; exact X).
      assert (Hk2 : k' <> k) by (intro X; apply Hk'; apply in_or_app; right; left; symmetry; exact X).
      destruct (Ho k' Hk2) as (A & B). rewrite A, B. apply J2. exact Hk1.
  Qed.

  Lemma replay_inv : forall am1 em1 os dn a e,
    Inv am1 em1 -> (forall s, In s os -> In s opts) -> NoDup (dn ++ map a_name os) ->
    agree_on am1 em1 dn a e ->
    agree_on am1 em1 (dn ++ map a_name os)
      (fst (fold_left (replay1 am1 em1) os (a, e))) (snd (fold_left (replay1 am1 em1) os (a, e))).
  Proof.
    intros am1 em1 os. induction os as [|s os IH]; intros dn a e HI Hsub Hnd' HJ.
    - cbn. rewrite app_nil_r. exact HJ.
    - cbn [fold_left map]. replace (dn ++ a_name s :: map a_name os) with ((dn ++ [a_name s]) ++ map a_name os)
        by (rewrite <- app_assoc; reflexivity).
      assert (Hsub' : forall s0, In s0 os -> In s0 opts) by (intros s0 H0; apply Hsub; right; exact H0).
      assert (Hnd2 : NoDup ((dn ++ [a_name s]) ++ map a_name os)) by (rewrite <- app_assoc; exact Hnd').
      assert (Hfresh : ~ In (a_name s) dn).
      { intro X. cbn [map] in Hnd'. apply NoDup_remove_2 in Hnd'. apply Hnd'. apply in_or_app. left. exact X. }
      destruct (proj2 HJ _ Hfresh) as (Ja & Je).
      rewrite (surjective_pairing (replay1 am1 em1 (a, e) s)).
      apply (IH (dn ++ [a_name s]) _ _ HI Hsub' Hnd2).
      (* the group of [s] writes the key [a_name s] only, and what it writes there is what (am1, em1) hold; the key is
         fresh in (a, e), so the deletion in [replay1] does nothing *)
      destruct (canon_slot_view am1 em1 s HI (Hsub s (or_introl eq_refl)))
        as [Ea Ee|v Ea Ee Hf Hext Htag Etp|v ex p Ea Ee Hf Hext Htag Etp Hpo Hpp];
        unfold replay1; rewrite Ea, ?Etp, ?Ee; cbn [fst snd]; rewrite ?(get_del_none _ _ _ Je).
      + apply (agree_on_extend am1 em1 dn (a_name s) a e _ _ HJ Hfresh); [congruence|congruence|auto].
      + apply (agree_on_extend am1 em1 dn (a_name s) a e _ _ HJ Hfresh); [rewrite get_set_same; congruence|congruence|].
        intros k' Hk'. rewrite get_set_other by exact Hk'. auto.
      + apply (agree_on_extend am1 em1 dn (a_name s) a e _ _ HJ Hfresh); [rewrite get_set_same; congruence..|].
        intros k' Hk'. rewrite !get_set_other by exact Hk'. auto.
  Qed.

  Lemma replay_meq : forall am1 em1,
    Inv am1 em1 ->
    meq (fst (fold_left (replay1 am1 em1) opts ([], []))) am1 /\
    meq (snd (fold_left (replay1 am1 em1) opts ([], []))) em1.
  Proof.
    intros am1 em1 HI.
    assert (HJ0 : agree_on am1 em1 [] [] []) by (split; [intros k []|intros k _; split; reflexivity]).
    pose proof (replay_inv am1 em1 opts [] [] [] HI (fun s H => H) opt_names_nodup HJ0) as (J1 & J2).
    cbn [app] in J1, J2. destruct HI as (N1 & N2 & K1 & K2 & F).
    split; intro k.
    - destruct (in_dec (list_eq_dec N.eq_dec) k (map a_name opts)) as [Hin|Hout].
      + apply (J1 k Hin).
      + rewrite (proj1 (J2 k Hout)). symmetry. apply get_none_notin. intro X. apply Hout. apply K1. exact X.
    - destruct (in_dec (list_eq_dec N.eq_dec) k (map a_name opts)) as [Hin|Hout].
      + apply (J1 k Hin).
      + rewrite (proj2 (J2 k Hout)). symmetry. apply get_none_notin. intro X. apply Hout. apply K2. exact X.
  Qed.

  (* phase 2 reads and writes the first map only, and only up to [meq]; the second map passes through, whatever it is *)
  Lemma legal_req_meq : forall rs rargs a a' e e' am em,
    meq a a' -> legal_req rs rargs L a e = LComplete am em ->
    exists am', legal_req rs rargs L a' e' = LComplete am' e' /\ meq am' am /\ em = e.
  Proof.
    induction rs as [|r rs IH]; intros rargs a a' e e' am em Hm H; cbn [legal_req] in *.
    - destruct rargs; [|discriminate]. inversion H; subst. exists a'. split; [reflexivity|]. split; [|reflexivity].
      intro k. symmetry. apply Hm.
    - destruct rargs as [|x rargs]; [discriminate|].
      destruct (req_ok r x L); try discriminate.
      apply (IH rargs (assoc_set (a_name r) (snd x) a) (assoc_set (a_name r) (snd x) a') e e' am em); [apply meq_set; exact Hm|exact H].
  Qed.

  Lemma legal_req_result : forall rs rargs a e am em,
    NoDup (map a_name rs) -> legal_req rs rargs L a e = LComplete am em ->
    (forall k, ~ In k (map a_name rs) -> assoc_get k am = assoc_get k a) /\
    Forall2 (fun r x => req_ok r x L = SelYes /\ assoc_get (a_name r) am = Some (snd x)) rs rargs.
  Proof.
    induction rs as [|r rs IH]; intros rargs a e am em Hn H; cbn [legal_req] in *.
    - destruct rargs; [|discriminate]. inversion H; subst. split; [auto|constructor].
    - destruct rargs as [|x rargs]; [discriminate|].
      destruct (req_ok r x L) eqn:Er; try discriminate.
      cbn [map] in Hn. inversion Hn as [|y ys Hy Hys]; subst.
      destruct (IH rargs (assoc_set (a_name r) (snd x) a) e am em Hys H) as (A & B).
      split.
      + intros k Hk. rewrite A by (intro X; apply Hk; right; exact X).
        apply get_set_other. intro X. apply Hk. left. symmetry. exact X.
      + constructor; [|exact B]. split; [exact Er|]. rewrite (A _ Hy). apply get_set_same.
  Qed.

  (* table conditions: a tag parameter is never itself a tag; a slot that takes numbers does not also take strings
     (the serialiser appends a line feed to a non-quoted value of a string slot) *)
  (* declared here so that the lemmas above stay free of them *)
  Hypothesis TC1 : forall s ex, In s opts -> a_extra s = Some ex ->
    extype_has TyTag (ex_type ex) = false /\
    (extype_has TyNumber (ex_type ex) = true -> has_string_ex (ex_type ex) = false).
  Hypothesis TC2 : forall r, In r reqs -> atype_mem TyNumber (a_type r) = true -> has_string_list (a_type r) = false.
  Hypothesis TC3 : forall r, In r reqs -> atype_mem TyStringList (a_type r) = true -> atype_mem TyString (a_type r) = true.

  Lemma in_opts_type : forall s, In s opts -> a_type s = [TyTag].
  Proof.
    intros s H. rewrite forallb_forall in Hopts. destruct (opt_slot_ok_inv s (Hopts s H)) as (A & B). auto.
  Qed.

  Lemma plain_opt : forall s, In s opts -> plain_name d (a_name s).
  Proof.
    intros s H. unfold plain_name. rewrite Hargs, (find_def_in (opts ++ reqs) s Hnd (in_or_app _ _ _ (or_introl H))).
    rewrite (in_opts_type s H). exact I.
  Qed.

  Lemma plain_req : forall r, In r reqs -> plain_name d (a_name r).
  Proof.
    intros r H. unfold plain_name. rewrite Hargs, (find_def_in (opts ++ reqs) r Hnd (in_or_app _ _ _ (or_intror H))).
    rewrite forallb_forall in Hreqs. destruct (req_slot_ok_inv r (Hreqs r H)) as (_ & Hs & _).
    destruct (a_type r) as [|[] [|y l]]; try exact I. cbn in Hs. discriminate.
  Qed.

  Lemma val_of_param : forall s ex t v,
    In s opts -> a_extra s = Some ex -> param_ok ex (t, v) = true -> argP (t, v) ->
    val_arg [32%N] d (a_name s) (has_string_ex (ex_type ex)) v (t, v).
  Proof.
    intros s ex t v Hs Hex Hpo (Hpr & _). destruct (TC1 s ex Hs Hex) as (Hnt & Hnum).
    unfold param_ok in Hpo. cbn [fst] in Hpo. apply andb_true_iff in Hpo as [Hty _].
    destruct t; destruct v as [x|l|n0|ns0]; cbn in Hpr; try contradiction.
    - congruence.
    - destruct Hpr as [Hpr|(Hk & Hm)]; [apply va_string; exact Hpr|apply va_ml; [exact Hk|exact Hm|exact Hty]].
    - destruct Hpr as (Hne & Hall). apply va_list; [reflexivity|exact Hne|exact Hall|apply plain_opt; exact Hs].
    - apply va_number; [exact Hpr|apply Hnum; exact Hty].
  Qed.

  Lemma slots_opts : forall am em am1 em1 os rest_slots rest_args,
    Inv am1 em1 -> (forall s, In s os -> In s opts) ->
    (forall s, In s os -> assoc_get (a_name s) am = assoc_get (a_name s) am1 /\
                          assoc_get (a_name s) em = assoc_get (a_name s) em1) ->
    slots_args [32%N] d am em rest_slots rest_args ->
    slots_args [32%N] d am em (os ++ rest_slots) (canon_opts am1 em1 os ++ rest_args).
  Proof.
    intros am em am1 em1 os. induction os as [|s os IH]; intros rs ra HI Hsub Hlk Hrest; [exact Hrest|].
    assert (Hsub' : forall s0, In s0 os -> In s0 opts) by (intros s0 H0; apply Hsub; right; exact H0).
    assert (Hlk' : forall s0, In s0 os -> assoc_get (a_name s0) am = assoc_get (a_name s0) am1 /\
                                         assoc_get (a_name s0) em = assoc_get (a_name s0) em1)
      by (intros s0 H0; apply Hlk; right; exact H0).
    specialize (IH rs ra HI Hsub' Hlk' Hrest).
    pose proof (Hsub s (or_introl eq_refl)) as Hs. destruct (Hlk s (or_introl eq_refl)) as (La & Le).
    pose proof (in_opts_type s Hs) as Hty.
    assert (Htag : atype_mem TyTag (a_type s) = true) by (rewrite Hty; reflexivity).
    unfold canon_opts in *. cbn [flat_map].
    destruct (canon_slot_view am1 em1 s HI Hs) as [Ea Ee|v Ea Ee Hf Hext Htok Etp|v ex [t pv] Ea Ee Hf Hext Htok Etp Hpo Hpp];
      cbn [app]; rewrite <- La in Ea; rewrite <- Le in Ee.
    - apply sa_absent; assumption.
    - apply (sa_tag [32%N] d am em s (os ++ rs) _ v Htag); auto.
    - apply (sa_tag_param [32%N] d am em s (os ++ rs) _ v pv ex (t, pv) Htag); try assumption.
      + apply (takes_param_extra _ _ _ Etp).
      + apply val_of_param; [exact Hs|apply (takes_param_extra _ _ _ Etp)|exact Hpo|exact Hpp].
  Qed.

  Lemma slots_reqs : forall am em rs rargs,
    (forall r, In r rs -> In r reqs) ->
    Forall2 (fun r x => req_ok r x L = SelYes /\ assoc_get (a_name r) am = Some (snd x)) rs rargs ->
    Forall argP rargs -> slots_args [32%N] d am em rs rargs.
  Proof.
    intros am em rs rargs Hsub H. induction H as [|r x rs rargs (Hok & Hget) Hr IH]; intro Hp; [constructor|].
    inversion Hp as [|x' l' Hx Hl]; subst.
    assert (Hsub' : forall r0, In r0 rs -> In r0 reqs) by (intros r0 H0; apply Hsub; right; exact H0).
    specialize (IH Hsub' Hl). pose proof (Hsub r (or_introl eq_refl)) as Hin.
    pose proof Hreqs as Hreqs'. rewrite forallb_forall in Hreqs'.
    pose proof (Hreqs' r Hin) as Hrok. destruct (req_slot_ok_inv r Hrok) as (_ & Hsimple & Hnoex & Htagonly).
    destruct x as [t v]. cbn [snd] in *.
    assert (Hvt : is_valid_type t (a_type r) = true).
    { unfold req_ok in Hok. cbn [fst] in Hok. destruct (is_valid_type t (a_type r)); [reflexivity|discriminate]. }
    destruct Hx as (Hpr & _).
    destruct (atype_mem TyTag (a_type r)) eqn:Etag.
    - assert (Hty : a_type r = [TyTag]).
      { unfold req_slot_ok in Hrok. rewrite Etag in Hrok. repeat (apply andb_true_iff in Hrok; destruct Hrok as [Hrok ?]).
        match goal with K : is_tag_only r && has_value_test r = true |- _ => apply andb_true_iff in K; destruct K as [K _] end.
        unfold is_tag_only in *. destruct (a_type r) as [|[] [|y l]]; try discriminate. reflexivity. }
      rewrite Hty in Hvt.
      destruct t; destruct v as [s0|l|n0|ns0]; cbn in Hpr; try contradiction; try (cbn in Hvt; discriminate).
      apply (sa_tag [32%N] d am em r rs rargs s0 Etag Hget Hpr); [right; exact Hnoex|exact IH].
    - (* printable as it stands: a string by TC3, a list by plain_req, a number by TC2 *)
      apply (sa_pos [32%N] d am em r rs rargs v (t, v) Etag Hget); [|exact IH].
      destruct t; destruct v as [s0|l|n0|ns0]; cbn in Hpr; try contradiction.
      + exfalso. unfold is_valid_type in Hvt. rewrite Etag in Hvt. cbn in Hvt. discriminate.
      + destruct Hpr as [Hpr|(Hk & Hm)]; [apply va_string; exact Hpr|apply va_ml; [exact Hk|exact Hm|]].
        unfold has_string_list. unfold is_valid_type in Hvt. cbn [atype_eqb] in Hvt.
        destruct (atype_mem TyString (a_type r)) eqn:Es; [reflexivity|]. cbn [orb] in Hvt.
        change (atype_eqb TyString TyString) with true in Hvt. cbn [andb] in Hvt. rewrite (TC3 r Hin Hvt) in Es. discriminate.
      + destruct Hpr as (Hne & Hall). apply va_list; [reflexivity|exact Hne|exact Hall|apply plain_req; exact Hin].
      + apply va_number; [exact Hpr|]. apply (TC2 r Hin). unfold is_valid_type in Hvt. cbn in Hvt. rewrite orb_false_r in Hvt. exact Hvt.
  Qed.

  Lemma canon_opts_P : forall am1 em1 os, Inv am1 em1 -> (forall s, In s os -> In s opts) -> Forall argP (canon_opts am1 em1 os).
  Proof.
    intros am1 em1 os HI. induction os as [|s os IH]; intro Hsub; [constructor|].
    unfold canon_opts in *. cbn [flat_map]. apply Forall_app. split; [|apply IH; intros s0 H0; apply Hsub; right; exact H0].
    assert (Ht : forall v, tag_ok v = true -> argP (TyTag, VStr v)) by (intros v Hv; split; [exact Hv|exact I]).
    destruct (canon_slot_view am1 em1 s HI (Hsub s (or_introl eq_refl)))
      as [Ea Ee|v Ea Ee Hf Hext Htag Etp|v ex p Ea Ee Hf Hext Htag Etp Hpo Hpp]; auto.
  Qed.

  (* the canonical reordering of a legal argument list: legal again, same content, and it is what the maps
     say when read in definition order *)
  Theorem legal_opt_canonical : forall args am em,
    Forall argP args -> legal_opt (length args) opts reqs args L [] [] = LComplete am em ->
    exists cargs am' em',
      legal_opt (length cargs) opts reqs cargs L [] [] = LComplete am' em' /\ meq am' am /\ meq em' em /\
      slots_args [32%N] d am em (opts ++ reqs) cargs /\ Forall argP cargs.
  Proof.
    intros args am em Hpr H.
    destruct (legal_opt_prefix (length args) args [] [] am em Inv_nil Hpr (le_n _) H) as (am1 & em1 & rargs & HI & Hreq & Hst & Hrp).
    set (cargs := canon_opts am1 em1 opts ++ rargs).
    pose proof (replay_run am1 em1 opts rargs (length cargs) [] [] HI (fun s H0 => H0) Hst (le_n _)) as Hrun.
    destruct (replay_meq am1 em1 HI) as (Ma & Me).
    set (amB := fst (fold_left (replay1 am1 em1) opts ([], []))) in *.
    set (emB := snd (fold_left (replay1 am1 em1) opts ([], []))) in *.
    pose proof (meq_sym _ _ _ Ma) as Ma'.
    destruct (legal_req_meq reqs rargs am1 amB em1 emB am em Ma' Hreq) as (am' & Hreq' & Mam & Eem).
    exists cargs, am', emB. fold cargs in Hrun. rewrite Hrun.
    split; [exact Hreq'|]. split; [exact Mam|]. split; [subst em; exact Me|].
    assert (Hnr : NoDup (map a_name reqs)) by (rewrite map_app in Hnd; apply (nodup_app_r _ _ _ Hnd)).
    destruct (legal_req_result reqs rargs am1 em1 am em Hnr Hreq) as (Hkeep & Hf2).
    split.
    - apply slots_opts; [exact HI|auto| |].
      + intros s Hs. split; [|subst em; reflexivity].
        apply Hkeep. rewrite map_app in Hnd. apply (nodup_app_disjoint _ _ _ _ Hnd). apply in_map. exact Hs.
      + apply slots_reqs; [auto|exact Hf2|exact Hrp].
    - apply Forall_app. split; [apply canon_opts_P; [exact HI|auto]|exact Hrp].
  Qed.
End Canon.


Lemma slots_args_meq : forall d am em am' em' defs args,
  meq am am' -> meq em em' -> slots_args [32%N] d am em defs args -> slots_args [32%N] d am' em' defs args.
Proof.
  intros d am em am' em' defs args Ma Me H.
  induction H as [|a rest args Ha H IH|a rest args s Ht Ha Hs Hno H IH|a rest args s ev ex p Ht Ha Hs He Hex Hv H IH
                  |a rest args v p Ht Ha Hv H IH].
  - constructor.
  - apply sa_absent; [rewrite <- Ma; exact Ha|exact IH].
  - apply (sa_tag [32%N] d am' em' a rest args s Ht); [rewrite <- Ma; exact Ha|exact Hs| |exact IH].
    destruct Hno as [Hn|Hn]; [left; rewrite <- Me; exact Hn|right; exact Hn].
  - apply (sa_tag_param [32%N] d am' em' a rest args s ev ex p Ht); [rewrite <- Ma; exact Ha|exact Hs|rewrite <- Me; exact He|exact Hex|exact Hv|exact IH].
  - apply (sa_pos [32%N] d am' em' a rest args v p Ht); [rewrite <- Ma; exact Ha|exact Hv|exact IH].
Qed.

Fixpoint nodupb (l : list bytes) : bool :=
  match l with [] => true | x :: t => negb (mem x t) && nodupb t end.

Lemma nodupb_nodup : forall l, nodupb l = true -> NoDup l.
Proof.
  induction l as [|x l IH]; intro H; [constructor|]. cbn in H. apply andb_true_iff in H as [A B].
  constructor; [|apply IH; exact B]. intro X. apply mem_In in X. rewrite X in A. discriminate.
Qed.

(* decidable conditions on one definition, checked by computation on the tables generated from the code; [tbl_ok]
   adds that every key of the tables is the lower-cased command name *)
Definition extra_sep (a : argdef) : bool :=
  match a_extra a with
  | Some ex => negb (extype_has TyTag (ex_type ex)) && (negb (extype_has TyNumber (ex_type ex)) || negb (has_string_ex (ex_type ex)))
  | None => true
  end.

Definition type_sep (a : argdef) : bool :=
  (negb (atype_mem TyNumber (a_type a)) || negb (has_string_list (a_type a)))
  && (negb (atype_mem TyStringList (a_type a)) || atype_mem TyString (a_type a)).

Lemma extra_sep_spec : forall a ex, extra_sep a = true -> a_extra a = Some ex ->
  extype_has TyTag (ex_type ex) = false /\ (extype_has TyNumber (ex_type ex) = true -> has_string_ex (ex_type ex) = false).
Proof.
  intros a ex H Hex. unfold extra_sep in H. rewrite Hex in H. apply andb_true_iff in H as [A B].
  apply negb_true_iff in A. split; [exact A|]. intro X. rewrite X in B. apply negb_true_iff in B. exact B.
Qed.

Lemma type_sep_spec : forall a, type_sep a = true ->
  (atype_mem TyNumber (a_type a) = true -> has_string_list (a_type a) = false) /\
  (atype_mem TyStringList (a_type a) = true -> atype_mem TyString (a_type a) = true).
Proof.
  intros a H. unfold type_sep in H. apply andb_true_iff in H as [A B].
  split; intro X; [rewrite X in A; apply negb_true_iff in A; exact A|rewrite X in B; exact B].
Qed.

Definition def_ok (d : cmddef) : bool :=
  nodupb (map a_name (d_args d)) && forallb extra_sep (d_args d) && forallb type_sep (d_args d) && ident_ok (d_name d).

Definition tbl_ok (T : tables) : bool :=
  forallb (fun kd => beq (fst kd) (lower (d_name (snd kd))) && def_ok (snd kd)) T.

Lemma gci_canonical_name : forall T L name d,
  tbl_ok T = true -> get_command_instance T L name = inl d ->
  get_command_instance T L (d_name d) = inl d /\ def_ok d = true /\ ident_ok (d_name d) = true.
Proof.
  intros T L name d HT H. unfold get_command_instance in *.
  destruct (lookup_cmd T (lower name)) as [d0|] eqn:El; [|discriminate].
  assert (d0 = d).
  { destruct (d_extension d0) as [[|c e]|]; try (inversion H; reflexivity). destruct (mem (c :: e) L); inversion H; reflexivity. }
  subst d0. pose proof (lookup_cmd_In _ _ _ El) as Hin.
  unfold tbl_ok in HT. rewrite forallb_forall in HT. specialize (HT _ Hin). cbn [fst snd] in HT.
  apply andb_true_iff in HT as [Hk Hd]. apply beq_eq in Hk. rewrite <- Hk, El. split; [exact H|]. split; [exact Hd|].
  unfold def_ok in Hd. apply andb_true_iff in Hd. apply Hd.
Qed.

Theorem legal_canonical : forall d L args am em,
  wf_def d = true -> def_ok d = true -> Forall argP args ->
  legal d L args = LComplete am em ->
  exists cargs am' em',
    legal d L cargs = LComplete am' em' /\ meq am' am /\ meq em' em /\
    slots_args [32%N] d am em (d_args d) cargs /\ Forall argP cargs.
Proof.
  intros d L args am em Hwf Hok Hpr H.
  destruct (d_args d) as [|a0 l0] eqn:Ed.
  - unfold legal in *. rewrite Ed in *. destruct args; [|discriminate]. inversion H; subst.
    exists [], [], []. split; [reflexivity|]. split; [apply meq_refl|]. split; [apply meq_refl|]. split; constructor.
  - assert (Hne : d_args d <> []) by (rewrite Ed; discriminate).
    destruct (wf_def_struct d Hwf Hne) as (opts & reqs & Hargs & Hopts & Hreqs & Hrne & _ & Hos & Hrs).
    unfold def_ok in Hok. apply andb_true_iff in Hok as [Hok _]. apply andb_true_iff in Hok as [Hok Hts].
    apply andb_true_iff in Hok as [Hnb Hes]. rewrite Hargs in Hnb, Hes, Hts. rewrite forallb_forall in Hes, Hts.
    assert (Hnd : NoDup (map a_name (opts ++ reqs))) by (apply nodupb_nodup; exact Hnb).
    assert (TC1 : forall s ex, In s opts -> a_extra s = Some ex ->
              extype_has TyTag (ex_type ex) = false /\ (extype_has TyNumber (ex_type ex) = true -> has_string_ex (ex_type ex) = false)).
    { intros s ex Hs. apply extra_sep_spec, Hes, in_or_app. left. exact Hs. }
    assert (TC23 : forall r, In r reqs -> type_sep r = true) by (intros r Hr; apply Hts, in_or_app; right; exact Hr).
    assert (TC2 : forall r, In r reqs -> atype_mem TyNumber (a_type r) = true -> has_string_list (a_type r) = false)
      by (intros r Hr; apply (type_sep_spec r (TC23 r Hr))).
    assert (TC3 : forall r, In r reqs -> atype_mem TyStringList (a_type r) = true -> atype_mem TyString (a_type r) = true)
      by (intros r Hr; apply (type_sep_spec r (TC23 r Hr))).
    assert (Hl : forall xs, legal d L xs = legal_opt (length xs) opts reqs xs L [] []).
    { intro xs. unfold legal. rewrite Ed, Hos, Hrs. reflexivity. }
    rewrite Hl in H.
    destruct (legal_opt_canonical d opts reqs L Hargs Hopts Hreqs Hnd TC1 TC2 TC3 args am em Hpr H)
      as (cargs & am' & em' & A & B & C & D & E).
    exists cargs, am', em'. rewrite Hl. rewrite <- Ed, Hargs. auto.
Qed.

Print Assumptions legal_canonical.
