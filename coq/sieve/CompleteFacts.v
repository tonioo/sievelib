(* CompleteFacts.v — the parser machine run over the tokens of a command's arguments: the tokens of arguments the
   table interpreter accepts drive the machine as [feed] drives the interpreter, and an argument it refuses stops the
   machine at the last token of that argument; then completeness and faithfulness for commands without tests and
   blocks (C01, C03, C20).  Token positions play no role. *)
From Coq Require Import String.
From Coq Require Import List NArith Bool Arith Lia.
From SV Require Import Bytes Lexer Tables ArgCheck ArgSpec Machine MachineFacts ArgCheckFacts PositionFacts TotalFacts.
Import ListNotations.
Local Open Scope nat_scope.

Local Arguments check_next_arg : simpl never.
Local Arguments iscomplete : simpl never.
Local Arguments get_command_instance : simpl never.
Local Arguments check_completion : simpl never.
Local Arguments up : simpl never.

(* a token without a position: position 0 by convention (the machine never reads it: process_strip) *)
Definition mk (k : tkind) (v : bytes) : token := mkTok k v 0.

Fixpoint item_toks (items : list bytes) : list token :=
  match items with
  | [] => []
  | [s] => [mk TString s]
  | s :: t => mk TString s :: mk TComma [44%N] :: item_toks t
  end.

(* a string value is a quoted string or a multi-line ("text:") string *)
Definition str_kind (s : bytes) : tkind := match s with 34%N :: _ => TString | _ => TMultiline end.

Lemma str_kind_cases : forall s, str_kind s = TString \/ str_kind s = TMultiline.
Proof.
  intros [|c t]; [right; reflexivity|]. unfold str_kind.
  destruct c as [|p]; [right; reflexivity|]. do 6 (destruct p as [p|p|]; try (right; reflexivity)). left. reflexivity.
Qed.

Definition arg_toks (a : argument) : list token :=
  match a with
  | (TyStringList, VList items) => mk TLeftBracket [91%N] :: item_toks items ++ [mk TRightBracket [93%N]]
  | (TyString, VStr s) => [mk (str_kind s) s]
  | (TyNumber, VStr s) => [mk TNumber s]
  | (TyTag, VStr s) => [mk TTag s]
  | _ => []
  end.

(* arguments as the lexer can deliver them: valid UTF-8 strings, non-empty lists *)
Definition arg_ok (a : argument) : Prop :=
  match a with
  | (TyStringList, VList items) => items <> [] /\ Forall (fun s => utf8_valid s = true) items
  | (TyString, VStr s) => utf8_valid s = true
  | (TyNumber, VStr _) | (TyTag, VStr _) => True
  | _ => False
  end.

Lemma arg_ok_shape : forall a, arg_ok a -> shape_ok (fst a) (snd a).
Proof. intros [[] [x|l|n|ns]] H; cbn in *; try contradiction; exact I. Qed.

Lemma arg_ok_spec_shape : forall a, arg_ok a -> arg_shape_ok a = true.
Proof. intros [[] [x|l|n|ns]] H; cbn in *; try contradiction; reflexivity. Qed.

Lemma args_ok_spec_shape : forall args, Forall arg_ok args -> Forall (fun x => arg_shape_ok x = true) args.
Proof. intros args. apply Forall_impl. exact arg_ok_spec_shape. Qed.

Section LegalFeed.
  Variables (d : cmddef) (at_ : attach) (L : list bytes) (args : list argument).
  Hypothesis Hwf : wf_def d = true.
  Hypothesis Hfa : fixed_arity d = true.
  Hypothesis Hall : Forall arg_ok args.

  Let C := argcheck_correct_gen d at_ L args Hwf Hfa (args_ok_spec_shape args Hall).

  Lemma legal_complete_feed : forall am em, legal d L args = LComplete am em ->
    exists fN, feed (new_frame d at_) args L = FOk fN /\ iscomplete fN None = true /\ f_args fN = am /\ f_extra fN = em.
  Proof. intros am em H. pose proof C as X. unfold corr_stmt in X. rewrite H in X. exact X. Qed.

  Lemma legal_incomplete_feed : forall am em, legal d L args = LIncomplete am em ->
    exists fN, feed (new_frame d at_) args L = FOk fN /\ iscomplete fN None = false /\ f_args fN = am /\ f_extra fN = em.
  Proof. intros am em H. pose proof C as X. unfold corr_stmt in X. rewrite H in X. exact X. Qed.

  Lemma legal_reject_feed : forall e, legal d L args = LReject e -> feed (new_frame d at_) args L = FStop e.
  Proof. intros e H. pose proof C as X. unfold corr_stmt in X. rewrite H in X. exact X. Qed.
End LegalFeed.

(* the machine takes every token with True; None also when a token is asked for again (MRewind), so the
   reassignment of hasflag's arguments is outside *)
Fixpoint steps (T : tables) (st : pstate) (toks : list token) : option pstate :=
  match toks with
  | [] => Some st
  | t :: r => match process T st t with MTrue st' => steps T st' r | _ => None end
  end.

Lemma steps_app : forall T a b st,
  steps T st (a ++ b) = match steps T st a with Some st' => steps T st' b | None => None end.
Proof.
  intros T. induction a as [|t a IH]; intros b st; cbn [app steps]; [reflexivity|].
  destruct (process T st t); auto.
Qed.

Lemma steps_one : forall T st t st', process T st t = MTrue st' -> steps T st [t] = Some st'.
Proof. intros T st t st' H. cbn [steps]. rewrite H. reflexivity. Qed.

Definition strip_pos (t : token) : token := mk (t_kind t) (t_val t).

Lemma strip_kind : forall t k, t_kind t = k -> strip_pos t = mk k (t_val t).
Proof. intros t k <-. reflexivity. Qed.

Lemma process_strip : forall T st t, process T st (strip_pos t) = process T st t.
Proof. intros. apply process_tok; reflexivity. Qed.

Lemma steps_strip : forall T toks st, steps T st (map strip_pos toks) = steps T st toks.
Proof.
  intros T. induction toks as [|t r IH]; intro st; cbn [map steps]; [reflexivity|].
  rewrite process_strip. destruct (process T st t); auto.
Qed.

Lemma steps_then_run : forall T pre st st' fuel rest err endpos lastlen,
  steps T st (map strip_pos pre) = Some st' -> length pre < fuel ->
  exists ll, run_tokens fuel T (pre ++ rest) err endpos lastlen st =
             run_tokens (fuel - length pre) T rest err endpos ll st'.
Proof.
  intros T pre st st' fuel rest err endpos lastlen H. rewrite steps_strip in H. revert st fuel lastlen H.
  induction pre as [|x pre IH]; intros st fuel lastlen H Hf.
  - injection H as <-. exists lastlen. cbn [app length]. rewrite Nat.sub_0_r. reflexivity.
  - destruct fuel as [|f]; [cbn in Hf; lia|]. cbn [app]. rewrite run_tokens_S_cons.
    cbn [steps] in H. destruct (process T st x); try discriminate.
    apply (IH _ f (length (t_val x)) H). cbn in Hf. lia.
Qed.

Lemma steps_run_tokens : forall T toks st st' fuel endpos lastlen,
  steps T st (map strip_pos toks) = Some st' -> length toks < fuel ->
  exists ll, run_tokens fuel T toks None endpos lastlen st = finish st' endpos ll.
Proof.
  intros T toks st st' fuel endpos lastlen H Hf.
  destruct (steps_then_run T toks st st' fuel [] None endpos lastlen H Hf) as (ll & E).
  rewrite app_nil_r in E. exists ll. rewrite E.
  destruct (fuel - length toks) eqn:X; [lia|]. apply run_tokens_S_nil.
Qed.

Lemma parse_of_steps : forall T text st',
  steps T p_init (map strip_pos (fst (lex text))) = Some st' -> snd (lex text) = None ->
  exists ll, parse T text = finish st' (length text) ll.
Proof.
  intros T text st' Hs Herr. rewrite parse_run_tokens, Herr.
  apply (steps_run_tokens T (fst (lex text)) p_init st' _ (length text) 0 Hs). pose proof (token_count text). lia.
Qed.

Lemma iscomplete_inv : forall f, iscomplete f None = true ->
  pending_param f = false /\ forall a, iscomplete f (Some a) = true.
Proof.
  intros f H. unfold iscomplete, pending_param in *. destruct (d_variable_args_nb (f_def f)); [discriminate|].
  destruct (f_curarg f) as [ca|]; [|split; [reflexivity|intros [t v]; exact H]].
  destruct (a_extra ca) as [ex|]; [|split; [reflexivity|intros [t v]; exact H]].
  destruct (ex_valid_for ex); cbn in H; discriminate.
Qed.

Lemma iscomplete_none_some : forall f a, iscomplete f None = true -> iscomplete f (Some a) = true.
Proof. intros f a H. apply (iscomplete_inv f H). Qed.

Lemma complete_no_pending : forall f, iscomplete f None = true -> pending_param f = false.
Proof. intros f H. apply (iscomplete_inv f H). Qed.

Lemma cna_ok_incomplete : forall f t v add ce loaded f1 slot,
  check_next_arg f t v add ce loaded = CnaOk f1 slot -> iscomplete f None = false.
Proof.
  intros f t v add ce loaded f1 slot H. destruct (iscomplete f None) eqn:E; auto. exfalso.
  unfold check_next_arg in H. destruct (negb (has_arguments (f_def f))); [discriminate|].
  rewrite (iscomplete_none_some f (t, v) E) in H. discriminate.
Qed.

Lemma feed_cons_incomplete : forall f a args loaded fN,
  feed f (a :: args) loaded = FOk fN -> iscomplete f None = false.
Proof.
  intros f a args loaded fN H. cbn [feed] in H.
  destruct (check_next_arg f (fst a) (snd a) true true loaded) eqn:E; try discriminate.
  apply (cna_ok_incomplete _ _ _ _ _ _ _ _ E).
Qed.

Lemma cna_keeps : forall f t v add ce loaded f1 slot,
  fi f -> shape_ok t v -> check_next_arg f t v add ce loaded = CnaOk f1 slot ->
  fi f1 /\ f_def f1 = f_def f /\ f_attach f1 = f_attach f /\ f_children f1 = f_children f.
Proof.
  intros f t v add ce loaded f1 slot Hfi Hsh E.
  pose proof (cna_post_holds f t v add ce loaded Hfi Hsh) as P. rewrite E in P.
  destruct P as (A & B & C & D & _). auto.
Qed.

(* Parser.__check_command_completion; the middle case is an action, or a control that takes no block *)
Lemma check_completion_eq : forall st f rest ts, p_stack st = f :: rest ->
  check_completion st ts =
  if negb (iscomplete f None) then MTrue st
  else if is_action f || (is_control f && negb (d_accept_children (f_def f)))
       then MTrue (if ts then with_expected (Some [TSemicolon]) st else st)
       else cc_loop f rest st.
Proof. intros st f rest ts Es. unfold check_completion. rewrite Es. reflexivity. Qed.

Lemma cc_incomplete : forall st f rest ts,
  p_stack st = f :: rest -> iscomplete f None = false -> check_completion st ts = MTrue st.
Proof. intros st f rest ts Es H. rewrite (check_completion_eq st f rest ts Es), H. reflexivity. Qed.

Lemma cc_no_block : forall st f rest ts,
  p_stack st = f :: rest -> is_action f || (is_control f && negb (d_accept_children (f_def f))) = true ->
  check_completion st ts = MTrue (if iscomplete f None && ts then with_expected (Some [TSemicolon]) st else st).
Proof.
  intros st f rest ts Es H. rewrite (check_completion_eq st f rest ts Es), H. destruct (iscomplete f None); reflexivity.
Qed.

Lemma cc_false_no_block : forall f rest,
  is_action f || (is_control f && negb (d_accept_children (f_def f))) = true ->
  forall st, p_stack st = f :: rest -> check_completion st false = MTrue st.
Proof. intros f rest H st Es. rewrite (cc_no_block st f rest false Es H), andb_false_r. reflexivity. Qed.

(* same state except for the current command.  p_curlist is left out here and in every statement below: Parser keeps
   the last string list in it and never resets it, nothing reads it before the next '[' *)
Definition same_but_top (st st' : pstate) : Prop :=
  p_cstate st' = p_cstate st /\ p_brackets st' = p_brackets st /\ p_loaded st' = p_loaded st /\
  p_hash st' = p_hash st /\ p_result st' = p_result st.

Lemma same_but_top_trans : forall a b c, same_but_top a b -> same_but_top b c -> same_but_top a c.
Proof. intros a b c (A0 & A1 & A2 & A3 & A4) (B0 & B1 & B2 & B3 & B4). unfold same_but_top. repeat split; congruence. Qed.

Definition scalar_tok (k : tkind) (ty : atype) (v : bytes) : Prop :=
  ((k = TString \/ k = TMultiline) /\ ty = TyString /\ utf8_valid v = true) \/
  (k = TNumber /\ ty = TyNumber) \/ (k = TTag /\ ty = TyTag).

Definition arg_kind (k : tkind) : bool :=
  match k with TString | TMultiline | TNumber | TTag | TLeftBracket => true | _ => false end.

Lemma scalar_arg_kind : forall k ty v, scalar_tok k ty v -> arg_kind k = true.
Proof. intros k ty v [([->| ->] & _)|[(-> & _)|(-> & _)]]; reflexivity. Qed.

Definition list_open (st : pstate) : pstate :=
  with_expected (Some [TString]) (with_curlist [] (with_cstate CStrList (with_brackets (BRBracket :: p_brackets st) st))).

Record in_list (st : pstate) (f : frame) (rest : list frame) (b : list bracket) (acc : list bytes) : Prop := {
  il_stack : p_stack st = f :: rest;
  il_cstate : p_cstate st = CStrList;
  il_brackets : p_brackets st = BRBracket :: b;
  il_curlist : p_curlist st = acc
}.

Section Known.
  Variable T : tables.

  Lemma with_expected_id : forall st, p_expected st = None -> with_expected None st = st.
  Proof. intros [] H; cbn in *; subst; reflexivity. Qed.

  Lemma process_passes : forall st t,
    t_kind t <> THashComment -> t_kind t <> TBracketComment -> passes (p_expected st) (t_kind t) ->
    process T st t = m_command T (with_expected None st) t.
  Proof.
    intros st t H1 H2 Hp. rewrite process_eq. unfold expect_then.
    destruct (p_expected st) as [l|] eqn:E; [cbn in Hp; rewrite Hp|rewrite (with_expected_id st E)];
      destruct (t_kind t); try reflexivity; congruence.
  Qed.

  Lemma process_arg_kind : forall st t,
    p_cstate st = CArgs -> p_expected st = None -> arg_kind (t_kind t) = true ->
    process T st t = m_arguments_default st t.
  Proof.
    intros st t Hc He Hk. rewrite process_eq. unfold expect_then. rewrite He, m_command_eq, Hc, m_arguments_eq.
    unfold on_false, after_false.
    destruct (t_kind t); try discriminate Hk; destruct (m_arguments_default st t); reflexivity.
  Qed.

  Lemma scalar_step : forall st f rest t ty,
    p_stack st = f :: rest -> p_cstate st = CArgs -> p_expected st = None ->
    scalar_tok (t_kind t) ty (t_val t) ->
    process T st t =
    match check_next_arg f ty (VStr (t_val t)) true true (p_loaded st) with
    | CnaOk f1 _ => check_completion (replace_top f1 st) false
    | CnaFalse => MFalse st
    | CnaErr e => MErr e
    | CnaCrash => MCrash
    end.
  Proof.
    intros st f rest t ty Es Hc He Hk.
    rewrite (process_arg_kind st t Hc He (scalar_arg_kind _ _ _ Hk)). unfold m_arguments_default.
    assert (Hm : m_argument st t = lift_cna (check_next_arg f ty (VStr (t_val t)) true true (p_loaded st)) st MTrue).
    { unfold m_argument. rewrite Es. destruct Hk as [([->| ->] & -> & ->)|[(-> & ->)|(-> & ->)]]; reflexivity. }
    rewrite Hm. unfold lift_cna. destruct (check_next_arg f ty (VStr (t_val t)) true true (p_loaded st)); reflexivity.
  Qed.

  Lemma lbracket_step : forall st f rest t,
    p_stack st = f :: rest -> p_cstate st = CArgs -> p_expected st = None -> t_kind t = TLeftBracket ->
    process T st t = check_completion (list_open st) false.
  Proof.
    intros st f rest t Es Hc He Hk. rewrite (process_arg_kind st t Hc He); [|rewrite Hk; reflexivity].
    unfold m_arguments_default, m_argument. rewrite Es, Hk. reflexivity.
  Qed.

  Lemma process_in_list : forall st t l,
    p_cstate st = CStrList -> p_expected st = Some l -> kind_mem (t_kind t) l = true ->
    t_kind t = TString \/ t_kind t = TComma \/ t_kind t = TRightBracket ->
    process T st t = m_stringlist (with_expected None st) t.
  Proof.
    intros st t l Hc He Hm Hk.
    rewrite process_passes by (rewrite ?He; destruct Hk as [Hk|[Hk|Hk]]; rewrite Hk in *; first [discriminate|exact Hm]).
    rewrite m_command_eq. pcbn. rewrite Hc. unfold on_false, after_false.
    destruct Hk as [Hk|[Hk|Hk]]; rewrite Hk; destruct (m_stringlist (with_expected None st) t); reflexivity.
  Qed.

  Lemma process_item : forall st f rest b acc t,
    in_list st f rest b acc -> exp_has TString (p_expected st) = true ->
    t_kind t = TString -> utf8_valid (t_val t) = true ->
    exists st', process T st t = MTrue st' /\ in_list st' f rest b (acc ++ [t_val t]) /\
                p_expected st' = Some [TComma; TRightBracket] /\ p_loaded st' = p_loaded st /\
                p_hash st' = p_hash st /\ p_result st' = p_result st.
  Proof.
    intros st f rest b acc t [Es Hc Hb Hl] He Hk Hu.
    destruct (p_expected st) as [l|] eqn:Ee; [|discriminate]. cbn in He.
    eexists. split.
    - rewrite (process_in_list st t l Hc Ee); [|rewrite Hk; exact He|auto].
      unfold m_stringlist. pcbn. rewrite Es, Hk, Hu. reflexivity.
    - split; [constructor; pcbn; auto; rewrite Hl; reflexivity|]. pcbn. repeat split; auto.
  Qed.

  Lemma process_comma : forall st f rest b acc t,
    in_list st f rest b acc -> exp_has TComma (p_expected st) = true -> t_kind t = TComma ->
    exists st', process T st t = MTrue st' /\ in_list st' f rest b acc /\
                p_expected st' = Some [TString] /\ p_loaded st' = p_loaded st /\
                p_hash st' = p_hash st /\ p_result st' = p_result st.
  Proof.
    intros st f rest b acc t [Es Hc Hb Hl] He Hk.
    destruct (p_expected st) as [l|] eqn:Ee; [|discriminate]. cbn in He.
    eexists. split.
    - rewrite (process_in_list st t l Hc Ee); [|rewrite Hk; exact He|auto].
      unfold m_stringlist. pcbn. rewrite Es, Hk. reflexivity.
    - split; [constructor; pcbn; auto|]. pcbn. repeat split; auto.
  Qed.

  Lemma process_rbracket : forall stB f rest b items t,
    in_list stB f rest b items -> p_expected stB = Some [TComma; TRightBracket] -> t_kind t = TRightBracket ->
    process T stB t =
    let st1 := with_brackets b (with_expected None stB) in
    match check_next_arg f TyStringList (VList items) true true (p_loaded stB) with
    | CnaOk f1 _ => check_completion (with_cstate CArgs (replace_top f1 st1)) true
    | CnaFalse => MFalse st1
    | CnaErr e => MErr e
    | CnaCrash => MCrash
    end.
  Proof.
    intros stB f rest b items t [EsB HcB HbB HlB] EB Hk. cbv zeta.
    rewrite (process_in_list stB t _ HcB EB); [|rewrite Hk; reflexivity|auto].
    unfold m_stringlist. pcbn. rewrite EsB, Hk. unfold pop_bracket. pcbn. rewrite HbB. cbn [bracket_eqb].
    unfold lift_cna. pcbn. rewrite HlB. reflexivity.
  Qed.

  Lemma items_steps : forall items st f rest b acc,
    items <> [] -> Forall (fun s => utf8_valid s = true) items ->
    in_list st f rest b acc -> exp_has TString (p_expected st) = true ->
    exists st', steps T st (item_toks items) = Some st' /\ in_list st' f rest b (acc ++ items) /\
                p_expected st' = Some [TComma; TRightBracket] /\ p_loaded st' = p_loaded st /\
                p_hash st' = p_hash st /\ p_result st' = p_result st.
  Proof.
    induction items as [|s t IH]; intros st f rest b acc Hne Hall Hin He; [congruence|].
    inversion Hall as [|s' t' Hs Ht]; subst.
    destruct (process_item st f rest b acc (mk TString s) Hin He eq_refl Hs) as (st1 & P1 & I1 & E1 & L1 & H1 & R1).
    cbn [t_val mk] in I1.
    destruct t as [|w t2].
    - cbn [item_toks steps]. rewrite P1. exists st1. auto 6.
    - change (item_toks (s :: w :: t2)) with (mk TString s :: mk TComma [44%N] :: item_toks (w :: t2)).
      cbn [steps]. rewrite P1.
      destruct (process_comma st1 f rest b (acc ++ [s]) (mk TComma [44%N]) I1) as (st2 & P2 & I2 & E2 & L2 & H2 & R2);
        [rewrite E1; reflexivity|reflexivity|].
      rewrite P2.
      destruct (IH st2 f rest b (acc ++ [s]) ltac:(discriminate) Ht I2) as (st3 & P3 & I3 & E3 & L3 & H3 & R3);
        [rewrite E2; reflexivity|].
      exists st3. rewrite <- app_assoc in I3. split; [exact P3|]. split; [exact I3|]. split; [exact E3|].
      repeat split; congruence.
  Qed.

  Definition answered (st : pstate) (rest : list frame) (r : cna) (res : mres) : Prop :=
    match r with
    | CnaOk f1 _ => exists stX ts, res = check_completion stX ts /\
                                   p_stack stX = f1 :: rest /\ p_expected stX = None /\ same_but_top st stX
    | CnaFalse => exists s, res = MFalse s
    | CnaErr e => res = MErr e
    | CnaCrash => res = MCrash
    end.

  (* [Hcc]: the command lets '[' through (it is incomplete, or takes no block) *)
  Lemma one_arg : forall st f rest a,
    p_stack st = f :: rest -> p_cstate st = CArgs -> p_expected st = None -> arg_ok a ->
    (forall st', p_stack st' = f :: rest -> check_completion st' false = MTrue st') ->
    exists pre t stB,
      arg_toks a = pre ++ [t] /\ steps T st pre = Some stB /\
      answered st rest (check_next_arg f (fst a) (snd a) true true (p_loaded st)) (process T stB t).
  Proof.
    intros st f rest [ty v] Es Hc He Hok Hcc. cbn [fst snd].
    assert (Hsc : forall k s, v = VStr s -> arg_toks (ty, v) = [mk k s] -> scalar_tok k ty s ->
              exists pre t stB, arg_toks (ty, v) = pre ++ [t] /\ steps T st pre = Some stB /\
                answered st rest (check_next_arg f ty v true true (p_loaded st)) (process T stB t)).
    { intros k s -> Et Hk. exists [], (mk k s), st. split; [exact Et|]. split; [reflexivity|].
      rewrite (scalar_step st f rest (mk k s) ty Es Hc He Hk). cbn [t_val mk]. unfold answered.
      destruct (check_next_arg f ty (VStr s) true true (p_loaded st)) as [f1 slot| | |]; eauto.
      exists (replace_top f1 st), false. unfold replace_top, same_but_top. rewrite Es. pcbn. auto 8. }
    destruct ty as [| | | | | |o]; destruct v as [x|l|n|ns]; cbn in Hok; try contradiction.
    - apply (Hsc TTag x); auto. right. right. auto.
    - apply (Hsc (str_kind x) x); auto. left. split; [apply str_kind_cases|auto].
    - destruct Hok as (Hne & Hall). cbn [arg_toks].
      assert (IA : in_list (list_open st) f rest (p_brackets st) []) by (constructor; unfold list_open; pcbn; auto).
      destruct (items_steps l (list_open st) f rest (p_brackets st) [] Hne Hall IA eq_refl)
        as (stB & PB & IB & EB & LB & HB & RB).
      exists (mk TLeftBracket [91%N] :: item_toks l), (mk TRightBracket [93%N]), stB.
      split; [reflexivity|]. split.
      { cbn [steps]. rewrite (lbracket_step st f rest (mk TLeftBracket [91%N]) Es Hc He eq_refl), (Hcc (list_open st) (il_stack _ _ _ _ _ IA)). exact PB. }
      rewrite (process_rbracket stB f rest (p_brackets st) l (mk TRightBracket [93%N]) IB EB eq_refl). cbv zeta. rewrite LB.
      change (p_loaded (list_open st)) with (p_loaded st). unfold answered.
      destruct (check_next_arg f TyStringList (VList l) true true (p_loaded st)) as [f1 slot| | |]; eauto.
      eexists. exists true. split; [reflexivity|].
      destruct IB as [EsB _ _ _]. unfold replace_top, same_but_top. pcbn. rewrite EsB. pcbn.
      unfold list_open in LB, HB, RB. pcbn_in LB. pcbn_in HB. pcbn_in RB. auto 8.
    - apply (Hsc TNumber x); auto. right. left. auto.
  Qed.

  Lemma feed_steps : forall args st f rest fN,
    p_stack st = f :: rest -> p_cstate st = CArgs -> p_expected st = None -> fi f ->
    Forall arg_ok args -> feed f args (p_loaded st) = FOk fN ->
    (args = [] /\ fN = f) \/
    exists pre t stB stX ts,
      flat_map arg_toks args = pre ++ [t] /\ steps T st pre = Some stB /\ process T stB t = check_completion stX ts /\
      p_stack stX = fN :: rest /\ p_expected stX = None /\ same_but_top st stX /\
      fi fN /\ f_def fN = f_def f /\ f_attach fN = f_attach f /\ f_children fN = f_children f.
  Proof.
    induction args as [|a args IH]; intros st f rest fN Es Hc He Hfi Hall Hfeed.
    - left. injection Hfeed as <-. auto.
    - right. inversion Hall as [|a' t' Ha Ht]; subst. cbn [feed] in Hfeed.
      destruct (check_next_arg f (fst a) (snd a) true true (p_loaded st)) as [f1 slot| | |] eqn:E; try discriminate.
      pose proof (cna_ok_incomplete _ _ _ _ _ _ _ _ E) as Hinc.
      destruct (one_arg st f rest a Es Hc He Ha (fun st' Es' => cc_incomplete st' f rest false Es' Hinc))
        as (pre & t & stB & Et & Sp & P).
      unfold answered in P. rewrite E in P. destruct P as (stX & ts & P & SX & EX & VX).
      destruct (cna_keeps _ _ _ _ _ _ _ _ Hfi (arg_ok_shape a Ha) E) as (Hf1 & Hd1 & Ha1 & Hc1).
      pose proof VX as (CX & _ & LX & _). rewrite <- LX in Hfeed. rewrite Hc in CX.
      destruct (IH stX f1 rest fN SX CX EX Hf1 Ht Hfeed)
        as [(-> & ->)|(pre2 & t2 & stB2 & stY & ts2 & Et2 & Sp2 & P2 & SY & EY & VY & FY & DY & AY & KY)].
      + exists pre, t, stB, stX, ts. cbn [flat_map]. rewrite app_nil_r. auto 12.
      + (* more arguments follow: the command is not complete, check_completion leaves the state alone *)
        assert (Hinc1 : iscomplete f1 None = false).
        { destruct args as [|a2 args2]; [destruct pre2; discriminate|]. apply (feed_cons_incomplete _ _ _ _ _ Hfeed). }
        rewrite (cc_incomplete stX f1 rest ts SX Hinc1) in P.
        exists (arg_toks a ++ pre2), t2, stB2, stY, ts2. cbn [flat_map].
        split; [rewrite Et2, app_assoc; reflexivity|].
        split; [rewrite Et, steps_app, steps_app, Sp; cbn [steps]; rewrite P; exact Sp2|].
        split; [exact P2|]. split; [exact SY|]. split; [exact EY|].
        split; [apply (same_but_top_trans _ _ _ VX VY)|]. split; [exact FY|]. split; [congruence|]. split; congruence.
  Qed.

  Lemma feed_steps_no_block : forall args st f rest fN,
    p_stack st = f :: rest -> p_cstate st = CArgs -> p_expected st = None -> fi f ->
    is_action f || (is_control f && negb (d_accept_children (f_def f))) = true ->
    Forall arg_ok args -> feed f args (p_loaded st) = FOk fN ->
    exists st', steps T st (flat_map arg_toks args) = Some st' /\ p_stack st' = fN :: rest /\
                (p_expected st' = None \/ (p_expected st' = Some [TSemicolon] /\ iscomplete fN None = true)) /\
                same_but_top st st' /\
                fi fN /\ f_def fN = f_def f /\ f_attach fN = f_attach f /\ f_children fN = f_children f.
  Proof.
    intros args st f rest fN Es Hc He Hfi Hnb Hall Hfeed.
    destruct (feed_steps args st f rest fN Es Hc He Hfi Hall Hfeed)
      as [(-> & ->)|(pre & t & stB & stX & ts & Et & Sp & P & SX & EX & VX & FX & DX & AX & KX)].
    - exists st. unfold same_but_top. auto 12.
    - rewrite (cc_no_block stX fN rest ts SX) in P
        by (unfold is_action, is_control in *; rewrite DX; exact Hnb).
      eexists. split; [rewrite Et, steps_app, Sp; cbn [steps]; rewrite P; reflexivity|].
      destruct VX as (V0 & V1 & V2 & V3 & V4). unfold same_but_top.
      destruct (iscomplete fN None) eqn:Ec; destruct ts; cbn [andb]; pcbn; auto 12.
  Qed.
End Known.

Record in_args (st : pstate) (f : frame) (rest : list frame) : Prop := {
  ia_stack : p_stack st = f :: rest;
  ia_cstate : p_cstate st = CArgs;
  ia_action : is_action f = true;
  ia_fi : fi f
}.

Theorem run_args : forall T args st f rest fN,
  in_args st f rest -> p_expected st = None -> Forall arg_ok args ->
  feed f args (p_loaded st) = FOk fN ->
  exists st', steps T st (flat_map arg_toks args) = Some st' /\ in_args st' fN rest /\
              (p_expected st' = None \/ (p_expected st' = Some [TSemicolon] /\ iscomplete fN None = true)) /\
              p_brackets st' = p_brackets st /\ p_loaded st' = p_loaded st /\
              p_hash st' = p_hash st /\ p_result st' = p_result st.
Proof.
  intros T args st f rest fN [Es Hc Ha Hfi] He Hall Hfeed.
  destruct (feed_steps_no_block T args st f rest fN Es Hc He Hfi ltac:(rewrite Ha; reflexivity) Hall Hfeed)
    as (st' & P & SX & EX & (CX & BX & LX & HX & RX) & FX & DX & _).
  exists st'. split; [exact P|]. split; [|auto].
  constructor; auto; [congruence|unfold is_action in *; rewrite DX; exact Ha].
Qed.

Definition can_start (st : pstate) : Prop :=
  p_cstate st = CNone /\ p_expected st = None /\ p_stack st = [].

Lemma process_semicolon : forall T st f S0 t,
  p_stack st = f :: S0 -> p_cstate st = CArgs -> passes (p_expected st) TSemicolon -> t_kind t = TSemicolon ->
  is_test f = false -> d_accept_children (f_def f) = false -> pending_param f = false ->
  process T st t =
  match complete_cb (with_cstate CNone (with_expected None st)) with
  | MTrue st3 => up st3
  | r => r
  end.
Proof.
  intros T st f S0 t Es Hc Hp Hk Ht Hch Hpp.
  rewrite process_passes by (rewrite Hk; first [discriminate|exact Hp]).
  rewrite m_command_eq. pcbn. rewrite Hc, m_arguments_eq, Hk.
  unfold m_arguments_default, m_argument. rewrite Hk. pcbn. rewrite Es.
  unfold on_false, after_false. rewrite Hk. pcbn. rewrite Es, Ht, Hch. cbn [orb]. rewrite Hpp.
  rewrite (cc_semicolon (with_cstate CNone (with_expected None st)) f S0 Es Ht Hch). reflexivity.
Qed.

(* name arg_1 ... arg_n ';' at top level: exactly one node is appended to the result, carrying exactly the
   maps computed by the interpreter; nothing else changes (the pending hash comments move to the node) *)
Theorem action_accepted : forall T st name d args fN,
  can_start st ->
  get_command_instance T (p_loaded st) name = inl d ->
  d_type d = CAction -> twf d = true -> d_complete d = HNone -> d_must_follow d = None ->
  Forall arg_ok args ->
  feed (new_frame d AtTop) args (p_loaded st) = FOk fN -> pending_param fN = false ->
  steps T st (mk TIdentifier name :: flat_map arg_toks args ++ [mk TSemicolon [59%N]]) =
  Some (mkP [] CNone (p_curlist (match steps T (with_cstate CArgs (with_stack [new_frame d AtTop] st)) (flat_map arg_toks args) with Some s => s | None => st end))
            None (p_brackets st) (p_loaded st) []
            (p_result st ++ [Node d (f_args fN) (f_extra fN) [] (p_hash st)])).
Proof.
  intros T st name d args fN (Hc & He & Es) Hg Hty Htw Hcb Hmf Hall Hfeed Hpp.
  set (f0 := new_frame d AtTop).
  set (st1 := with_cstate CArgs (with_stack [f0] st)).
  assert (P0 : process T st (mk TIdentifier name) = MTrue st1).
  { rewrite process_eq. cbn [t_kind mk]. unfold expect_then. rewrite He, m_command_eq, Hc. unfold m_command_none.
    cbn [t_kind t_val mk]. rewrite Hg, Hty, Es. reflexivity. }
  cbn [steps]. rewrite P0. rewrite steps_app.
  assert (Ha0 : is_action f0 = true) by (unfold is_action; cbn; rewrite Hty; reflexivity).
  destruct (feed_steps_no_block T args st1 f0 [] fN eq_refl eq_refl He (fi_new_frame _ _ Htw)
              ltac:(rewrite Ha0; reflexivity) Hall Hfeed)
    as (st2 & P2 & Es2 & E2 & (Hc2 & B2 & L2 & H2 & R2) & _ & Hd & _ & Hch).
  fold st1. rewrite P2. cbn [steps].
  assert (Hnt : is_test fN = false) by (unfold is_test; rewrite Hd; cbn; rewrite Hty; reflexivity).
  assert (Hnch : d_accept_children (f_def fN) = false) by (rewrite Hd; exact (tw_action _ (twf_elim d Htw) Hty)).
  rewrite (process_semicolon T st2 fN [] _ Es2 Hc2); auto;
    [|destruct E2 as [E2|(E2 & _)]; rewrite E2; [exact I|reflexivity]].
  unfold complete_cb. pcbn. rewrite Es2, Hd. cbn [f_def f0 new_frame]. rewrite Hcb.
  unfold up. pcbn. rewrite Es2, Hd. cbn [f_def f0 new_frame]. rewrite Hmf. cbn [negb].
  unfold frame_node, with_stack, with_hash, with_result, with_cstate, with_expected. pcbn. rewrite Hd, Hch, B2, L2, H2, R2. unfold st1. pcbn. reflexivity.
Qed.

(* C01 (completeness) + C03 (faithfulness) for one action: if the SPECIFICATION says the arguments are legal
   and complete, with maps am / em, the tokens are accepted and the node carries exactly am / em *)
Theorem action_complete : forall T st name d args am em,
  can_start st ->
  get_command_instance T (p_loaded st) name = inl d ->
  d_type d = CAction -> twf d = true -> d_complete d = HNone -> d_must_follow d = None ->
  wf_def d = true -> fixed_arity d = true ->
  Forall arg_ok args ->
  legal d (p_loaded st) args = LComplete am em ->
  exists cl,
    steps T st (mk TIdentifier name :: flat_map arg_toks args ++ [mk TSemicolon [59%N]]) =
    Some (mkP [] CNone cl None (p_brackets st) (p_loaded st) [] (p_result st ++ [Node d am em [] (p_hash st)])).
Proof.
  intros T st name d args am em Hs Hg Hty Htw Hcb Hmf Hwf Hfa Hall Hleg.
  destruct (legal_complete_feed d AtTop (p_loaded st) args Hwf Hfa Hall am em Hleg) as (fN & Hfeed & Hcomp & <- & <-).
  eexists. apply (action_accepted T st name d args fN Hs Hg Hty Htw Hcb Hmf Hall Hfeed (complete_no_pending fN Hcomp)).
Qed.

(* a text that lexes (with any layout: blanks, line endings) to the tokens of `name args ;` is accepted, and
   the result is exactly one command with exactly the specified argument maps *)
Theorem parse_single_action : forall T text name d args am em,
  twf_tables T = true ->
  snd (lex text) = None ->
  map strip_pos (fst (lex text)) = mk TIdentifier name :: flat_map arg_toks args ++ [mk TSemicolon [59%N]] ->
  get_command_instance T [] name = inl d ->
  d_type d = CAction -> d_complete d = HNone -> d_must_follow d = None ->
  wf_def d = true -> fixed_arity d = true ->
  Forall arg_ok args ->
  legal d [] args = LComplete am em ->
  parse T text = Accept [Node d am em [] []].
Proof.
  intros T text name d args am em HT Herr Htoks Hg Hty Hcb Hmf Hwf Hfa Hall Hleg.
  assert (Htw : twf d = true) by (eapply gci_twf; eauto).
  destruct (action_complete T p_init name d args am em) as (cl & Hs); auto.
  { unfold can_start, p_init. cbn. auto. }
  rewrite <- Htoks in Hs. destruct (parse_of_steps T text _ Hs Herr) as (ll & ->). reflexivity.
Qed.

Print Assumptions run_args.
Print Assumptions action_accepted.
Print Assumptions action_complete.
Print Assumptions parse_single_action.

Definition verdict_of (o : outcome) : option (list node) :=
  match o with Accept r => Some r | _ => None end.

Definition same_outcome (a b : outcome) : Prop :=
  match a, b with
  | Accept r, Accept r' => r = r'
  | Reject e _ _, Reject e' _ _ => e = e'
  | Crash _, Crash _ => True
  | OutOfFuel, OutOfFuel => True
  | _, _ => False
  end.

Lemma run_tokens_layout : forall T f1 f2 toks1 toks2 err1 err2 e1 e2 l1 l2 st,
  map strip_pos toks1 = map strip_pos toks2 ->
  (err1 = None <-> err2 = None) ->
  run_tokens f1 T toks1 err1 e1 l1 st <> OutOfFuel ->
  run_tokens f2 T toks2 err2 e2 l2 st <> OutOfFuel ->
  same_outcome (run_tokens f1 T toks1 err1 e1 l1 st) (run_tokens f2 T toks2 err2 e2 l2 st).
Proof.
  intros T. induction f1 as [|f1 IH]; intros f2 toks1 toks2 err1 err2 e1 e2 l1 l2 st Hm He H1 H2; [cbn in H1; congruence|].
  destruct f2 as [|f2]; [cbn in H2; congruence|].
  destruct toks1 as [|t1 r1]; destruct toks2 as [|t2 r2]; try discriminate.
  - rewrite !run_tokens_S_nil.
    destruct err1, err2; try (exfalso; destruct He as [A B]; (discriminate (A eq_refl) || discriminate (B eq_refl))); cbn; auto.
    unfold finish. destruct (match p_brackets st with b :: _ => Some [closing_kind b] | [] => p_expected st end); cbn; auto.
    destruct (p_stack st); cbn; auto.
  - rewrite !run_tokens_S_cons in *. cbn [map] in Hm.
    assert (Hk : strip_pos t1 = strip_pos t2) by congruence.
    assert (Hrest : map strip_pos r1 = map strip_pos r2) by congruence.
    assert (K1 : t_kind t1 = t_kind t2) by (unfold strip_pos, mk in Hk; congruence).
    assert (K2 : t_val t1 = t_val t2) by (unfold strip_pos, mk in Hk; congruence).
    rewrite (process_tok T st t1 t2 K1 K2) in *. destruct (process T st t2) eqn:Ep; try (cbn; auto; fail);
      rewrite K2 in *; apply IH; auto; cbn [map]; rewrite Hk, Hrest; reflexivity.
Qed.

(* C01: the verdict (and the tree, and the error category) is insensitive to whitespace and line-ending
   style: two texts that lex to the same tokens are treated alike *)
Theorem layout_insensitive : forall T text1 text2,
  twf_tables T = true ->
  map strip_pos (fst (lex text1)) = map strip_pos (fst (lex text2)) ->
  (snd (lex text1) = None <-> snd (lex text2) = None) ->
  same_outcome (parse T text1) (parse T text2).
Proof.
  intros T text1 text2 HT Hm He.
  pose proof (parse_total T text1 HT) as P1. pose proof (parse_total T text2 HT) as P2.
  rewrite !parse_run_tokens in *.
  apply run_tokens_layout; auto; intro X; [rewrite X in P1|rewrite X in P2]; contradiction.
Qed.

Print Assumptions layout_insensitive.
