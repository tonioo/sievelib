(* BuildFacts.v — the command trees the filter factory builds (factory/Build.v) for the documented condition and
   action forms (C06, C11).  Each tree is written out (cnode, anode); it stands for a test / a command of the grammar
   in canonical form with the factory's list separators (canon_cnode, canon_anode), and that test / command is legal
   wherever the extensions it needs are loaded, the parser building pnode / anode for it (wf_pnode, wf_anode).
   Whole filters and whole sets: BuildSet.v.

   Names: c- is about a condition form (dcond), a- about an action form (dact), f- (BuildSet) about a whole filter;
   p- is the tree the parser builds where it differs from the one the factory builds; g- (BuildSet) a condition with
   its `not` around it.  After the prefix: tuple (what the caller writes), args / test / cmd (the script), maps /
   extra / node (the tree), reqs (requirements recorded), exts (extensions needed). *)
From Coq Require Import String.
From Coq Require Import List NArith Bool Arith Lia.
From SV Require Import lib.Bytes sieve.Lexer sieve.Tables sieve.ArgCheck sieve.ArgSpec sieve.Machine sieve.Printer
  sieve.ArgCheckFacts sieve.PositionFacts sieve.TotalFacts sieve.LexerFacts sieve.CompleteFacts sieve.CompleteTree
  sieve.RenderFacts sieve.PrintTree sieve.GateFacts sieve.CanonFacts sieve.LessLoaded gen.GenTables lib.BytesFacts factory.Text factory.TextFacts factory.Ops factory.Build.
Import ListNotations.
Local Close Scope N_scope.
Local Open Scope string_scope.
Local Open Scope list_scope.

(* the same relation as LessLoaded.sub *)
Definition sub (L L' : list bytes) : Prop := forall x, mem x L = true -> mem x L' = true.

(* a value the factory quotes itself: it does not start with a double or single quote *)
Definition vok (v : bytes) : Prop := quote_if_necessary v = quote v.

Definition vokb (v : bytes) : bool :=
  match v with c :: _ => negb (N.eqb c 34 || N.eqb c 39) | [] => true end.

Lemma vokb_ok : forall v, vokb v = true -> vok v.
Proof.
  intros [|c t] H; [reflexivity|]. unfold vok, quote_if_necessary, vokb in *.
  destruct (N.eqb c 34 || N.eqb c 39); [discriminate|reflexivity].
Qed.

Lemma exact_qin : forall v, vok v -> exact_string (quote_if_necessary v).
Proof. intros v H. rewrite H. apply quote_exact. Qed.

Lemma utf8_qin : forall v, vok v -> utf8_valid v = true -> utf8_valid (quote_if_necessary v) = true.
Proof. intros v Hv H. rewrite Hv. apply utf8_quote. exact H. Qed.

Definition has_exts (L exts : list bytes) : Prop := forall e, In e exts -> mem e L = true.

Lemma has_exts_sub : forall L exts, has_exts L exts -> sub exts L.
Proof. intros L exts H x Hx. apply mem_In in Hx. apply H, Hx. Qed.

(* the white space the factory's trees have after the commas of a list: none where the list was handed over as the
   text produced by __quote_list, a blank where it is a Python list printed by Command.tosieve *)
Definition fsep (name : bytes) : bytes :=
  if mem name [bs "exists"; bs "envelope"; bs "address"; bs "body"; bs "currentdate"] then [] else [32%N].

Lemma fsep_space : forall name, all_space (fsep name).
Proof. intro name. unfold fsep. destruct (mem name _); reflexivity. Qed.

Inductive mtag := MIs | MContains | MMatches.
Definition mtag_b (m : mtag) : bytes :=
  match m with MIs => bs ":is" | MContains => bs ":contains" | MMatches => bs ":matches" end.
Definition mnot_b (m : mtag) : bytes :=
  match m with MIs => bs ":notis" | MContains => bs ":notcontains" | MMatches => bs ":notmatches" end.
Definition mt_b (neg : bool) (m : mtag) : bytes := if neg then mnot_b m else mtag_b m.

Inductive rel := RGt | RGe | RLt | RLe | REq | RNe.
Definition rel_b (r : rel) : bytes :=
  match r with RGt => bs "gt" | RGe => bs "ge" | RLt => bs "lt" | RLe => bs "le" | REq => bs "eq" | RNe => bs "ne" end.

Inductive hv := HStr (s : bytes) | HList (l : list bytes).
Definition hv_fv (x : hv) : fv := match x with HStr s => FS s | HList l => FL l end.

(* the condition forms taken as the "supported condition descriptions" of property C06 *)
Inductive dcond :=
| DHeader (neg : bool) (m : mtag) (h v : hv)
| DExists (neg : bool) (names : list bytes)
| DSize (neg : bool) (over : bool) (n : bytes)
| DEnvelope (neg : bool) (m : mtag) (hs ks : list bytes)
| DAddress (neg : bool) (m : mtag) (hs ks : hv)
| DBody (neg : bool) (raw : bool) (m : mtag) (vals : list bytes)
| DCurrentdate (neg : bool) (zone : bytes) (m : mtag) (part : bytes) (keys : list bytes)
| DCurrentdateValue (zone : bytes) (r : rel) (part : bytes) (keys : list bytes)
| DTrue | DFalse.

(* the tuple a caller writes *)
Definition ctuple (d : dcond) : tuple :=
  match d with
  | DHeader neg m h v => [hv_fv h; FS (mt_b neg m); hv_fv v]
  | DExists neg names => FS (if neg then bs "notexists" else bs "exists") :: map FS names
  | DSize neg over n => [FS (if neg then bs "notsize" else bs "size"); FS (if over then bs ":over" else bs ":under"); FI n]
  | DEnvelope neg m hs ks => [FS (bs "envelope"); FS (mt_b neg m); FL hs; FL ks]
  | DAddress neg m hs ks => [FS (bs "address"); FS (mt_b neg m); hv_fv hs; hv_fv ks]
  | DBody neg raw m vals => FS (bs "body") :: FS (if raw then bs ":raw" else bs ":text") :: FS (mt_b neg m) :: map FS vals
  | DCurrentdate neg zone m part keys =>
      FS (bs "currentdate") :: FS (bs ":zone") :: FS zone :: FS (mt_b neg m) :: FS part :: map FS keys
  | DCurrentdateValue zone r part keys =>
      FS (bs "currentdate") :: FS (bs ":zone") :: FS zone :: FS (bs ":value") :: FS (rel_b r) :: FS part :: map FS keys
  | DTrue => [FS (bs "true")]
  | DFalse => [FS (bs "false")]
  end.

(* the documented action forms whose definitions are of the shape ArgSpec describes (keep, setflag, addflag,
   removeflag are not: known findings of C01/C03) *)
Inductive dact :=
| AFileinto (copy create : bool) (flags : option hv) (folder : bytes)
| ARedirect (copy : bool) (addr : bytes)
| AReject (reason : bytes)
| ADiscard
| AStop
| AVacation (subject : option bytes) (period : option (bool * bytes)) (from : option bytes)
            (addresses : option (list bytes)) (handle : option bytes) (mime : bool) (reason : bytes).

(* the arguments of an action as the caller writes them, by what they are meant to be *)
Inductive aarg := ATag (s : bytes) | AStrv (s : bytes) | AListv (l : list bytes) | ANumv (d : bytes).
Definition aarg_fv (x : aarg) : fv :=
  match x with ATag s | AStrv s => FS s | AListv l => FL l | ANumv d => FI d end.

Definition opt_desc (tag : string) (o : option bytes) : list aarg :=
  match o with Some v => [ATag (bs tag); AStrv v] | None => [] end.
Definition flag_desc (tag : string) (b : bool) : list aarg := if b then [ATag (bs tag)] else [].
Definition hv_desc (x : hv) : aarg := match x with HStr s => AStrv s | HList l => AListv l end.

Definition aname (a : dact) : bytes :=
  match a with
  | AFileinto _ _ _ _ => bs "fileinto" | ARedirect _ _ => bs "redirect" | AReject _ => bs "reject"
  | ADiscard => bs "discard" | AStop => bs "stop" | AVacation _ _ _ _ _ _ _ => bs "vacation"
  end.

Definition adesc (a : dact) : list aarg :=
  match a with
  | AFileinto copy create flags folder =>
      flag_desc ":copy" copy ++ flag_desc ":create" create ++
      (match flags with Some x => [ATag (bs ":flags"); hv_desc x] | None => [] end) ++ [AStrv folder]
  | ARedirect copy addr => flag_desc ":copy" copy ++ [AStrv addr]
  | AReject reason => [AStrv reason]
  | ADiscard | AStop => []
  | AVacation subject period from addresses handle mime reason =>
      opt_desc ":subject" subject ++
      (match period with Some (secs, n) => [ATag (if secs then bs ":seconds" else bs ":days"); ANumv n] | None => [] end) ++
      opt_desc ":from" from ++
      (match addresses with Some l => [ATag (bs ":addresses"); AListv l] | None => [] end) ++
      opt_desc ":handle" handle ++ flag_desc ":mime" mime ++ [AStrv reason]
  end.

Definition atuple (a : dact) : tuple := FS (aname a) :: map aarg_fv (adesc a).

Definition tdef (name : bytes) : cmddef :=
  match lookup_cmd gen_tables name with
  | Some d => d
  | None => mkCmd [] CTest [] false false false None None None HNone RNotImplemented
  end.

(* a command object whose required arguments have all been given: what check_next_arg leaves behind then;
   [done (full_frame D am em)] is [Node D am em [] []] by computation *)
Definition full_frame (D : cmddef) (am em : list (bytes * aval)) : frame :=
  mkFrame D am em [] (List.length (d_args D)) (required_args D) (last_opt (d_args D)) AtTop.

Section Conds.
Variable qin : bytes -> bytes.
Variable qlist : list bytes -> bytes.

Definition hv_arg (x : hv) : argument :=
  match x with HStr s => (TyString, VStr (qin s)) | HList l => (TyStringList, VList (map qin l)) end.
(* __quote_list quotes every item itself (quote, not qin): a list handed over through it only has to be valid UTF-8
   (lok), while a value that goes through __quote_if_necessary must also not look quoted already (sok, lsok) *)
Definition ql_arg (l : list bytes) : argument := (TyStringList, VList (map quote l)).
Definition tag_arg (s : bytes) : argument := (TyTag, VStr s).

(* negated: wrapped in `not` *)
Definition cneg (d : dcond) : bool :=
  match d with
  | DHeader neg _ _ _ | DExists neg _ | DSize neg _ _ | DEnvelope neg _ _ _ | DAddress neg _ _ _ | DBody neg _ _ _
  | DCurrentdate neg _ _ _ _ => neg
  | _ => false
  end.

Definition cname (d : dcond) : bytes :=
  match d with
  | DHeader _ _ _ _ => bs "header" | DExists _ _ => bs "exists" | DSize _ _ _ => bs "size"
  | DEnvelope _ _ _ _ => bs "envelope" | DAddress _ _ _ _ => bs "address" | DBody _ _ _ _ => bs "body"
  | DCurrentdate _ _ _ _ _ | DCurrentdateValue _ _ _ _ => bs "currentdate"
  | DTrue => bs "true" | DFalse => bs "false"
  end.

(* the arguments of the test as the script shows them (definition order) *)
Definition cargs (d : dcond) : list argument :=
  match d with
  | DHeader _ m h v => [tag_arg (mtag_b m); hv_arg h; hv_arg v]
  | DExists _ names => [ql_arg names]
  | DSize _ over n => [tag_arg (if over then bs ":over" else bs ":under"); (TyNumber, VStr n)]
  | DEnvelope _ m hs ks => [tag_arg (mtag_b m); ql_arg hs; ql_arg ks]
  | DAddress _ m hs ks =>
      [tag_arg (mtag_b m);
       match hs with HStr s => (TyString, VStr (qin s)) | HList l => ql_arg l end;
       match ks with HStr s => (TyString, VStr (qin s)) | HList l => ql_arg l end]
  | DBody _ raw m vals => [tag_arg (mtag_b m); tag_arg (if raw then bs ":raw" else bs ":text"); ql_arg vals]
  | DCurrentdate _ zone m part keys =>
      [tag_arg (bs ":zone"); (TyString, VStr (qin zone)); tag_arg (mtag_b m); (TyString, VStr (qin part)); ql_arg keys]
  | DCurrentdateValue zone r part keys =>
      [tag_arg (bs ":zone"); (TyString, VStr (qin zone)); tag_arg (bs ":value"); (TyString, VStr (quote (rel_b r)));
       (TyString, VStr (qin part)); ql_arg keys]
  | DTrue | DFalse => []
  end.

Definition ctest (d : dcond) : gtest := GSimple (cname d) (cargs d).

(* the requirements __create_filter records; currentdate with :value asks for "relational" twice: __add_tag does for the tag, then the literal
   self.require("relational") *)
Definition creqs (d : dcond) (reqs : list bytes) : list bytes :=
  match d with
  | DEnvelope _ _ _ _ => require (bs "envelope") reqs
  | DBody _ _ _ _ => require (bs "body") reqs
  | DCurrentdate _ _ _ _ _ => require (bs "date") reqs
  | DCurrentdateValue _ _ _ _ => require (bs "relational") (require (bs "relational") (require (bs "date") reqs))
  | _ => reqs
  end.

Definition cexts (d : dcond) : list bytes :=
  match d with
  | DEnvelope _ _ _ _ => [bs "envelope"]
  | DBody _ _ _ _ => [bs "body"]
  | DCurrentdate _ _ _ _ _ => [bs "date"]
  | DCurrentdateValue _ _ _ _ => [bs "date"; bs "relational"]
  | _ => []
  end.

(* a header name given as one string must not be taken for a keyword or a negation *)
Definition hdr_ok (h : hv) : Prop :=
  match h with
  | HStr s => cond_kind (FS s) = (false, KHeader)
  | HList _ => True
  end.

(* what the quoting functions are assumed to do (for the factory's own: BuildSet.std_qin_eq, std_qlist_eq) *)
Hypothesis qin_eq : forall s, vok s -> qin s = quote s.
Hypothesis qlist_eq : forall l, qlist l = 91%N :: join [44%N] (map quote l) ++ [93%N].

Definition utf8 (s : bytes) : Prop := utf8_valid s = true.
(* a string the factory quotes: not quoted already, valid UTF-8 *)
Definition sok (s : bytes) : Prop := vok s /\ utf8 s.
(* a list handed over through __quote_list *)
Definition lok (l : list bytes) : Prop := l <> [] /\ Forall utf8 l.
(* a list whose items are quoted one by one *)
Definition lsok (l : list bytes) : Prop := l <> [] /\ Forall sok l.

Definition hv_ok (x : hv) : Prop := match x with HStr s => sok s | HList l => lsok l end.
Definition hva_ok (x : hv) : Prop := match x with HStr s => sok s | HList l => lok l end.

Definition cond_ok (d : dcond) : Prop :=
  match d with
  | DHeader _ _ h v => hdr_ok h /\ hv_ok h /\ hv_ok v
  | DExists _ names => lok names
  | DSize _ _ n => num_ok n
  | DEnvelope _ _ hs ks => lok hs /\ lok ks
  | DAddress _ _ hs ks => hva_ok hs /\ hva_ok ks
  | DBody _ _ _ vals => lok vals
  | DCurrentdate _ zone _ part keys => sok zone /\ sok part /\ lok keys
  | DCurrentdateValue zone _ part keys => sok zone /\ sok part /\ lok keys
  | DTrue | DFalse => True
  end.

Lemma all_str_map : forall l, all_str (map FS l) = Some l.
Proof. induction l as [|x l IH]; [reflexivity|]. cbn [map all_str fold_right] in *. unfold all_str in IH. rewrite IH. reflexivity. Qed.

Lemma sok_facts : forall s, sok s -> exact_string (qin s) /\ utf8_valid (qin s) = true.
Proof. intros s [A B]. rewrite (qin_eq s A). split; [apply quote_exact|apply utf8_quote, B]. Qed.

Lemma lok_facts : forall l, lok l ->
  map quote l <> [] /\ Forall exact_string (map quote l) /\ Forall (fun s => utf8_valid s = true) (map quote l).
Proof.
  intros l [A B]. split; [destruct l; [congruence|discriminate]|].
  split; apply Forall_map; [apply Forall_forall; intros; apply quote_exact|].
  eapply Forall_impl; [|exact B]. exact utf8_quote.
Qed.

Lemma lsok_facts : forall l, lsok l ->
  map qin l <> [] /\ Forall exact_string (map qin l) /\ Forall (fun s => utf8_valid s = true) (map qin l).
Proof.
  intros l [A B]. split; [destruct l; [congruence|discriminate]|].
  split; apply Forall_map; (eapply Forall_impl; [|exact B]); intros s Hs; apply (sok_facts s Hs).
Qed.

(* the tree of a condition form.  [lv] says how a list that the factory hands over through
   __quote_list is stored: as its text in the tree the factory builds, as the list of its quoted items in the tree
   the parser builds for the printed text. *)
Definition hv_val (x : hv) : aval := snd (hv_arg x).

Definition cmaps (lv : list bytes -> aval) (d : dcond) : list (bytes * aval) :=
  let ha x := match x with HStr s => VStr (qin s) | HList l => lv l end in
  match d with
  | DHeader _ m h v => [(bs "match-type", VStr (mtag_b m)); (bs "header-names", hv_val h); (bs "key-list", hv_val v)]
  | DExists _ names => [(bs "header-names", lv names)]
  | DSize _ over n => [(bs "comparator", VStr (if over then bs ":over" else bs ":under")); (bs "limit", VStr n)]
  | DEnvelope _ m hs ks => [(bs "match-type", VStr (mtag_b m)); (bs "header-list", lv hs); (bs "key-list", lv ks)]
  | DAddress _ m hs ks => [(bs "match-type", VStr (mtag_b m)); (bs "header-list", ha hs); (bs "key-list", ha ks)]
  | DBody _ raw m vals =>
      [(bs "body-transform", VStr (if raw then bs ":raw" else bs ":text")); (bs "match-type", VStr (mtag_b m));
       (bs "key-list", lv vals)]
  | DCurrentdate _ _ m part keys =>
      [(bs "zone", VStr (bs ":zone")); (bs "match-type", VStr (mtag_b m)); (bs "date-part", VStr (qin part));
       (bs "key-list", lv keys)]
  | DCurrentdateValue _ _ part keys =>
      [(bs "zone", VStr (bs ":zone")); (bs "match-type", VStr (bs ":value")); (bs "date-part", VStr (qin part));
       (bs "key-list", lv keys)]
  | DTrue | DFalse => []
  end.

Definition cextra (d : dcond) : list (bytes * aval) :=
  match d with
  | DCurrentdate _ zone _ _ _ => [(bs "zone", VStr (qin zone))]
  | DCurrentdateValue zone r _ _ => [(bs "zone", VStr (qin zone)); (bs "match-type", VStr (quote (rel_b r)))]
  | _ => []
  end.

Definition cnode_of (lv : list bytes -> aval) (d : dcond) : node := Node (tdef (cname d)) (cmaps lv d) (cextra d) [] [].
Definition as_text (l : list bytes) : aval := VStr (qlist l).
Definition as_items (l : list bytes) : aval := VList (map quote l).
Definition cnode : dcond -> node := cnode_of as_text.

(* the parser meets the two tags of a body test in the order of the script *)
Definition pmaps (d : dcond) : list (bytes * aval) :=
  match d with
  | DBody _ raw m vals =>
      [(bs "match-type", VStr (mtag_b m)); (bs "body-transform", VStr (if raw then bs ":raw" else bs ":text"));
       (bs "key-list", as_items vals)]
  | _ => cmaps as_items d
  end.
Definition pnode (d : dcond) : node := Node (tdef (cname d)) (pmaps d) (cextra d) [] [].

Lemma rel_quoted : forall r, qin (rel_b r) = quote (rel_b r).
Proof. intro r. apply qin_eq, vokb_ok. destruct r; reflexivity. Qed.

Lemma mtag_ok : forall m, tag_ok (mtag_b m) = true.
Proof. intros [ | | ]; reflexivity. Qed.

Lemma comp_tag_mt : forall neg m, comp_tag_of (mt_b neg m) false = (mtag_b m, neg).
Proof. intros [|] [ | | ]; reflexivity. Qed.

(* the dispatch of __create_filter on a keyword: cbn does not compare byte strings, so cond_kind is computed first,
   then the branch of build_kind is opened *)
Ltac dispatch :=
  match goal with |- context [cond_kind ?x] =>
    let v := eval lazy in (cond_kind x) in change (cond_kind x) with v end;
  cbn [build_kind].

(* all the factory needs to take the branch meant for the form *)
Definition buildable (d : dcond) : Prop := match d with DHeader _ _ h _ => hdr_ok h | _ => True end.

Lemma cond_ok_buildable : forall d, cond_ok d -> buildable d.
Proof. intros d H. destruct d; try exact I. apply H. Qed.

(* [reflexivity] runs the builder on gen_tables.  It terminates although the values are variables: qin and qlist are
   section variables, and no step of the builder, of check_next_arg or of legal looks inside a value. *)
Lemma build_frame : forall d loaded reqs, buildable d ->
  build_test qin qlist gen_tables loaded (ctuple d) reqs =
  BOk (full_frame (tdef (cname d)) (cmaps as_text d) (cextra d), cneg d, creqs d reqs).
Proof.
  intros d loaded reqs H.
  destruct d as [neg m h v|neg names|neg over n|neg m hs ks|neg m hs ks|neg raw m vals|neg zone m part keys|zone r part keys| |];
    unfold build_test; cbn [ctuple hv_fv].
  - destruct h as [s|l]; cbn [hv_fv]; [cbn [buildable hdr_ok] in H; rewrite H|]; destruct neg, m, v; reflexivity.
  - destruct neg; dispatch; rewrite all_str_map; reflexivity.
  - destruct neg, over; reflexivity.
  - dispatch. rewrite comp_tag_mt. destruct m; reflexivity.
  - dispatch. rewrite comp_tag_mt. destruct m, hs, ks; reflexivity.
  - dispatch. rewrite all_str_map, comp_tag_mt. destruct raw, m; reflexivity.
  - dispatch. rewrite all_str_map, comp_tag_mt. destruct m; reflexivity.
  - dispatch. rewrite all_str_map, rel_quoted. destruct r; reflexivity.
  - reflexivity.
  - reflexivity.
Qed.

Lemma va_qin : forall sw D name b s, sok s -> val_arg sw D name b (VStr (qin s)) (TyString, VStr (qin s)).
Proof. intros sw D name b s H. apply va_string, (sok_facts s H). Qed.

Lemma va_text : forall D name b l, lok l -> val_arg [] D name b (as_text l) (ql_arg l).
Proof.
  intros D name b l H. destruct (lok_facts l H) as (A & B & _). unfold as_text. rewrite qlist_eq.
  apply va_qlist; [reflexivity|exact A|exact B].
Qed.

Lemma va_hv : forall D name b x, hv_ok x -> plain_name D name -> val_arg [32%N] D name b (hv_val x) (hv_arg x).
Proof.
  intros D name b [s|l] H P; cbn [hv_ok] in H.
  - apply va_qin, H.
  - destruct (lsok_facts l H) as (A & B & _). apply va_list; [reflexivity|exact A|exact B|exact P].
Qed.

(* reads the maps of a tree slot by slot against the arguments: at each slot the one constructor of slots_args that
   fits.  The maps of cnode are written in the order the factory fills them, which for body is not the order of the
   definition, so slots_in_order does not apply; the action trees are given by am_of and use it. *)
Ltac fslots :=
  first [ apply sa_nil
        | apply sa_absent; [reflexivity | fslots]
        | eapply sa_tag_param; [reflexivity | reflexivity | reflexivity | reflexivity | reflexivity | | fslots]
        | eapply sa_tag; [reflexivity | reflexivity | first [reflexivity | apply mtag_ok] | left; reflexivity | fslots]
        | eapply sa_pos; [reflexivity | reflexivity | | fslots] ].

Lemma canon_cnode : forall d, cond_ok d -> canon_test fsep (ctest d) (cnode d).
Proof.
  intros d Hok. unfold cnode, cnode_of, ctest.
  destruct d as [neg m h v|neg names|neg over n|neg m hs ks|neg m hs ks|neg raw m vals|neg zone m part keys|zone r part keys| |];
    cbn [cond_ok] in Hok; (eapply ct_simple'; [reflexivity|reflexivity|reflexivity|]); cbn [cname cargs cmaps cextra].
  - destruct Hok as (_ & Hh & Hv). fslots; (apply va_hv; [assumption|exact I]).
  - fslots. apply va_text, Hok.
  - destruct over; fslots; (apply va_number; [exact Hok|reflexivity]).
  - destruct Hok as (Hh & Hk). fslots; apply va_text; assumption.
  - destruct Hok as (Hh & Hk). destruct hs, ks; cbn [hva_ok] in *; fslots; first [apply va_qin|apply va_text]; assumption.
  - destruct raw; fslots; apply va_text, Hok.
  - destruct Hok as (Hz & Hp & Hk). fslots; first [apply va_qin|apply va_text]; assumption.
  - destruct Hok as (Hz & Hp & Hk). fslots; first [apply va_qin; assumption|apply va_text; assumption|apply va_string, quote_exact].
  - fslots.
  - fslots.
Qed.

Lemma build_cond : forall d loaded reqs, cond_ok d ->
  exists f, build_test qin qlist gen_tables loaded (ctuple d) reqs = BOk (f, cneg d, creqs d reqs) /\
            canon_test fsep (ctest d) (done f).
Proof.
  intros d loaded reqs Hok. exists (full_frame (tdef (cname d)) (cmaps as_text d) (cextra d)).
  split; [apply build_frame, cond_ok_buildable, Hok|apply (canon_cnode d Hok)].
Qed.

Lemma hv_arg_ok : forall x, hv_ok x -> arg_ok (hv_arg x).
Proof.
  intros [s|l] H; cbn [hv_ok hv_arg arg_ok] in *; [apply (sok_facts s H)|].
  destruct (lsok_facts l H) as (A & _ & B). split; assumption.
Qed.

Lemma ql_arg_ok : forall l, lok l -> arg_ok (ql_arg l).
Proof. intros l H. destruct (lok_facts l H) as (A & _ & B). split; assumption. Qed.

Lemma qin_arg_ok : forall s, sok s -> arg_ok (TyString, VStr (qin s)).
Proof. intros s H. apply (sok_facts s H). Qed.

Lemma cargs_ok : forall d, cond_ok d -> Forall arg_ok (cargs d).
Proof.
  intros d H.
  destruct d as [neg m h v|neg names|neg over n|neg m hs ks|neg m hs ks|neg raw m vals|neg zone m part keys|zone r part keys| |];
    cbn [cond_ok cargs] in *; repeat (apply Forall_cons || apply Forall_nil); try exact I;
    try (apply hv_arg_ok, H); try (apply ql_arg_ok, H); try (apply qin_arg_ok, H).
  - destruct hs; [apply qin_arg_ok|apply ql_arg_ok]; apply H.
  - destruct ks; [apply qin_arg_ok|apply ql_arg_ok]; apply H.
  - apply utf8_quote. destruct r; reflexivity.
Qed.

Lemma ctest_legal : forall d,
  get_command_instance gen_tables (cexts d) (cname d) = inl (tdef (cname d)) /\
  d_type (tdef (cname d)) = CTest /\ has_test_slot (tdef (cname d)) = false /\
  d_expected_first (tdef (cname d)) = None /\ wf_def (tdef (cname d)) = true /\ fixed_arity (tdef (cname d)) = true /\
  legal (tdef (cname d)) (cexts d) (cargs d) = LComplete (pmaps d) (cextra d).
Proof.
  intro d. destruct d as [neg m h v|neg names|neg over n|neg m hs ks|neg m hs ks|neg raw m vals|neg zone m part keys|zone r part keys| |];
    repeat split.
  - destruct m, h, v; reflexivity.
  - destruct over; reflexivity.
  - destruct m; reflexivity.
  - destruct m, hs, ks; reflexivity.
  - destruct raw, m; reflexivity.
  - destruct m; reflexivity.
  - destruct r; reflexivity.
Qed.

Lemma wf_pnode : forall d L, cond_ok d -> has_exts L (cexts d) ->
  wf_test gen_tables L (ctest d) (pnode d).
Proof.
  intros d L Hok HL. pose proof (has_exts_sub _ _ HL) as Hs.
  destruct (ctest_legal d) as (G & Ty & Ts & Ef & Wf & Fa & Lg).
  apply wf_simple; try assumption.
  - apply (gci_mono _ _ _ _ _ Hs G).
  - apply (cargs_ok d Hok).
  - apply (legal_mono _ _ _ _ _ _ Wf Fa (cargs_ok d Hok) Hs Lg).
Qed.

Lemma cond_wf : forall d L, cond_ok d -> (forall e, In e (cexts d) -> mem e L = true) ->
  exists n, wf_test gen_tables L (ctest d) n.
Proof. intros d L Hok HL. exists (pnode d). apply (wf_pnode d L Hok HL). Qed.


Definition opt_args (tag : string) (o : option bytes) : list argument :=
  match o with Some v => [tag_arg (bs tag); (TyString, VStr (qin v))] | None => [] end.
Definition flag_args (tag : string) (b : bool) : list argument := if b then [tag_arg (bs tag)] else [].

(* the same optional group of an action in three forms: opt_desc / flag_desc as the caller writes it, opt_args /
   flag_args as the script shows it, opt_e / flag_e as the tree holds it *)
Definition flag_e (tag : string) (b : bool) : sentry := if b then STag (bs tag) else SNone.
Definition opt_e (tag : string) (o : option bytes) : sentry :=
  match o with Some v => STagP (bs tag) (VStr (qin v)) | None => SNone end.

Definition aargs (a : dact) : list argument :=
  match a with
  | AFileinto copy create flags folder =>
      flag_args ":copy" copy ++ flag_args ":create" create ++
      (match flags with Some x => [tag_arg (bs ":flags"); hv_arg x] | None => [] end) ++ [(TyString, VStr (qin folder))]
  | ARedirect copy addr => flag_args ":copy" copy ++ [(TyString, VStr (qin addr))]
  | AReject reason => [(TyString, VStr (qin reason))]
  | ADiscard | AStop => []
  | AVacation subject period from addresses handle mime reason =>
      opt_args ":subject" subject ++
      (match period with Some (secs, n) => [tag_arg (if secs then bs ":seconds" else bs ":days"); (TyNumber, VStr n)] | None => [] end) ++
      opt_args ":from" from ++
      (match addresses with Some l => [tag_arg (bs ":addresses"); (TyStringList, VList (map qin l))] | None => [] end) ++
      opt_args ":handle" handle ++ flag_args ":mime" mime ++ [(TyString, VStr (qin reason))]
  end.

Definition acmd (a : dact) : gcmd := GAct (aname a) (aargs a).

Definition req_if (b : bool) (e : string) (reqs : list bytes) : list bytes := if b then require (bs e) reqs else reqs.

Definition areqs (a : dact) (reqs : list bytes) : list bytes :=
  match a with
  | AFileinto copy create flags _ =>
      req_if (match flags with Some _ => true | None => false end) "imap4flags"
        (req_if create "mailbox" (req_if copy "copy" (require (bs "fileinto") reqs)))
  | ARedirect copy _ => req_if copy "copy" reqs
  | AReject _ => require (bs "reject") reqs
  | ADiscard | AStop => reqs
  | AVacation _ period _ _ _ _ _ =>
      req_if (match period with Some (true, _) => true | _ => false end) "vacation-seconds" (require (bs "vacation") reqs)
  end.

Definition aexts (a : dact) : list bytes :=
  match a with
  | AFileinto copy create flags _ =>
      bs "fileinto" :: (if copy then [bs "copy"] else []) ++ (if create then [bs "mailbox"] else []) ++
      (match flags with Some _ => [bs "imap4flags"] | None => [] end)
  | ARedirect copy _ => if copy then [bs "copy"] else []
  | AReject _ => [bs "reject"]
  | ADiscard | AStop => []
  | AVacation _ period _ _ _ _ _ =>
      bs "vacation" :: (match period with Some (true, _) => [bs "vacation-seconds"] | _ => [] end)
  end.

Definition osok (o : option bytes) : Prop := match o with Some v => sok v | None => True end.

Definition act_ok (a : dact) : Prop :=
  match a with
  | AFileinto _ _ flags folder => match flags with Some x => hv_ok x | None => True end /\ sok folder
  | ARedirect _ addr => sok addr
  | AReject reason => sok reason
  | ADiscard | AStop => True
  | AVacation subject period from addresses handle _ reason =>
      osok subject /\ match period with Some (_, n) => num_ok n | None => True end /\ osok from /\
      match addresses with Some l => lsok l | None => True end /\ osok handle /\ sok reason
  end.

(* a value meant as a string must not start with ':' (the factory would take it for a tag) *)
Definition not_tag (v : bytes) : Prop := starts_with [58%N] v = false.

Definition aarg_ok (x : aarg) : Prop :=
  match x with ATag s => starts_with [58%N] s = true | AStrv s => not_tag s | _ => True end.

Definition act_plain (a : dact) : Prop := Forall aarg_ok (adesc a).

Definition aarg_tv (x : aarg) : atype * aval :=
  match x with
  | ATag s => (TyTag, VStr s) | AStrv s => (TyString, VStr (qin s))
  | AListv l => (TyStringList, VList (map qin l)) | ANumv d => (TyNumber, VStr d)
  end.
Definition aarg_ext (x : aarg) (reqs : list bytes) : list bytes :=
  match x with ATag s => arg_extension (FS s) reqs | _ => reqs end.

(* the loop over the arguments of an action, without the tests on the values *)
Fixpoint action_args_spec (loaded : list bytes) (f : frame) (xs : list aarg) (reqs : list bytes) : bres (frame * list bytes) :=
  match xs with
  | [] => BOk (f, reqs)
  | x :: r =>
      do f' <- cna_do loaded f (fst (aarg_tv x)) (snd (aarg_tv x)) false;
      action_args_spec loaded f' r (aarg_ext x reqs)
  end.

Lemma beq_colon : forall s t, not_tag s -> beq s (58%N :: t) = false.
Proof.
  intros [|c r] t H; [reflexivity|]. unfold not_tag in H. cbn [starts_with] in H. cbn [beq].
  rewrite N.eqb_sym. destruct (N.eqb 58 c) eqn:E; [try rewrite E in H; cbn in H; discriminate H|reflexivity].
Qed.

Lemma action_args_eq : forall loaded xs f reqs, Forall aarg_ok xs ->
  action_args qin loaded f (map aarg_fv xs) reqs = action_args_spec loaded f xs reqs.
Proof.
  intros loaded xs. induction xs as [|x r IH]; intros f reqs H; [reflexivity|].
  inversion H as [|x' r' Hx Hr]; subst. cbn [map action_args action_args_spec].
  destruct x as [s|s|l|d]; cbn [aarg_fv aarg_tv aarg_ext aarg_ok fst snd] in *.
  - rewrite Hx. destruct (cna_do loaded f TyTag (VStr s) false); cbn [bbind]; auto.
  - unfold not_tag in Hx. rewrite Hx.
    assert (E : arg_extension (FS s) reqs = reqs).
    { unfold arg_extension. rewrite !(beq_colon s _ Hx). reflexivity. }
    rewrite E. destruct (cna_do loaded f TyString (VStr (qin s)) false); cbn [bbind]; auto.
  - destruct (cna_do loaded f TyStringList (VList (map qin l)) false); cbn [bbind]; auto.
  - destruct (cna_do loaded f TyNumber (VStr d) false); cbn [bbind]; auto.
Qed.

(* slot by slot, in the order of the definitions of fileinto, redirect, reject, vacation *)
Definition aentries (a : dact) : list sentry :=
  match a with
  | AFileinto copy create flags folder =>
      [flag_e ":copy" copy; flag_e ":create" create;
       match flags with Some x => STagP (bs ":flags") (hv_val x) | None => SNone end; SPos (VStr (qin folder))]
  | ARedirect copy addr => [flag_e ":copy" copy; SPos (VStr (qin addr))]
  | AReject reason => [SPos (VStr (qin reason))]
  | ADiscard | AStop => []
  | AVacation subject period from addresses handle mime reason =>
      [opt_e ":subject" subject;
       match period with Some (false, n) => STagP (bs ":days") (VStr n) | _ => SNone end;
       match period with Some (true, n) => STagP (bs ":seconds") (VStr n) | _ => SNone end;
       opt_e ":from" from;
       match addresses with Some l => STagP (bs ":addresses") (VList (map qin l)) | None => SNone end;
       opt_e ":handle" handle; flag_e ":mime" mime; SPos (VStr (qin reason))]
  end.

Definition amaps (a : dact) : list (bytes * aval) := am_of (d_args (tdef (aname a))) (aentries a).
Definition aextra (a : dact) : list (bytes * aval) := em_of (d_args (tdef (aname a))) (aentries a).

Definition anode (a : dact) : node := Node (tdef (aname a)) (amaps a) (aextra a) [] [].

Lemma build_anode : forall a loaded reqs, act_plain a ->
  build_action qin gen_tables loaded (atuple a) reqs = BOk (anode a, areqs a reqs).
Proof.
  intros a loaded reqs Hpl.
  assert (Hrun : build_action qin gen_tables loaded (atuple a) reqs =
                 do f <- gci gen_tables loaded (aname a) false;
                 let r0 := match d_extension (f_def f) with Some e => require e reqs | None => reqs end in
                 do (f', r1) <- action_args_spec loaded f (adesc a) r0; BOk (done f', r1)).
  { unfold build_action, atuple. destruct (gci gen_tables loaded (aname a) false) as [f|e|]; cbn [bbind]; try reflexivity.
    rewrite (action_args_eq loaded (adesc a) f _ Hpl). reflexivity. }
  rewrite Hrun. clear Hrun Hpl.
  destruct a as [copy create flags folder|copy addr|reason| | |subject period from addresses handle mime reason].
  - destruct flags as [[s|l]|], copy, create; reflexivity.
  - destruct copy; reflexivity.
  - reflexivity.
  - reflexivity.
  - reflexivity.
  - destruct subject, period as [[[|] pn]|], from, addresses, handle, mime; reflexivity.
Qed.

Lemma va_qins : forall D name b l, lsok l -> plain_name D name ->
  val_arg [32%N] D name b (VList (map qin l)) (TyStringList, VList (map qin l)).
Proof. intros D name b l H P. destruct (lsok_facts l H) as (A & B & _). apply va_list; [reflexivity|assumption..]. Qed.

Lemma so_flag : forall sw D a tag b, atype_mem TyTag (a_type a) = true -> tag_ok (bs tag) = true ->
  slot_ok sw D a (flag_e tag b) (flag_args tag b).
Proof. intros sw D a tag [|] Ht Hk; [apply so_tag; assumption|apply so_none]. Qed.

Lemma so_opt : forall sw D a tag o ex, atype_mem TyTag (a_type a) = true -> tag_ok (bs tag) = true ->
  a_extra a = Some ex -> osok o -> slot_ok sw D a (opt_e tag o) (opt_args tag o).
Proof.
  intros sw D a tag [v|] ex Ht Hk Hex Ho; [|apply so_none].
  eapply so_tagp; [exact Ht|exact Hk|exact Hex|apply va_qin, Ho].
Qed.

Lemma canon_anode : forall a, act_ok a -> canon_cmd fsep (acmd a) (anode a).
Proof.
  intros a Hok. unfold anode, acmd, amaps, aextra.
  destruct a as [copy create flags folder|copy addr|reason| | |subject period from addresses handle mime reason];
    (eapply cc_act'; [reflexivity|reflexivity|discriminate|reflexivity|]);
    (apply slots_in_order; [apply distinct_NoDup; reflexivity|]); cbn [aname aargs aentries act_ok] in *.
  - apply sk_cons; [apply so_flag; reflexivity|]. apply sk_cons; [apply so_flag; reflexivity|].
    apply sk_cons; [|apply sk_last, so_pos; [reflexivity|apply va_qin, Hok]].
    destruct flags as [x|]; [|apply so_none].
    eapply so_tagp; [reflexivity|reflexivity|reflexivity|apply va_hv; [apply Hok|exact I]].
  - apply sk_cons; [apply so_flag; reflexivity|]. apply sk_last, so_pos; [reflexivity|apply va_qin, Hok].
  - apply sk_last, so_pos; [reflexivity|apply va_qin, Hok].
  - apply sk_nil.
  - apply sk_nil.
  - destruct Hok as (Hs & Hp & Hf & Ha & Hh & Hr).
    apply sk_cons; [eapply so_opt; [reflexivity|reflexivity|reflexivity|exact Hs]|].
    assert (Rest : slots_ok (fsep (bs "vacation")) (tdef (bs "vacation")) (skipn 3 (d_args (tdef (bs "vacation"))))
                     (skipn 3 (aentries (AVacation subject period from addresses handle mime reason)))
                     (opt_args ":from" from ++
                      (match addresses with Some l => [tag_arg (bs ":addresses"); (TyStringList, VList (map qin l))] | None => [] end) ++
                      opt_args ":handle" handle ++ flag_args ":mime" mime ++ [(TyString, VStr (qin reason))])).
    { cbn [skipn aentries].
      apply sk_cons; [eapply so_opt; [reflexivity|reflexivity|reflexivity|exact Hf]|].
      apply sk_cons; [destruct addresses as [l|]; [|apply so_none];
                      eapply so_tagp; [reflexivity|reflexivity|reflexivity|apply va_qins; [exact Ha|exact I]]|].
      apply sk_cons; [eapply so_opt; [reflexivity|reflexivity|reflexivity|exact Hh]|].
      apply sk_cons; [apply so_flag; reflexivity|]. apply sk_last, so_pos; [reflexivity|apply va_qin, Hr]. }
    destruct period as [[[|] n]|].
    + apply sk_skip. apply sk_cons; [|exact Rest]. eapply so_tagp; [reflexivity|reflexivity|reflexivity|apply va_number; [exact Hp|reflexivity]].
    + apply sk_cons; [|apply sk_skip, Rest]. eapply so_tagp; [reflexivity|reflexivity|reflexivity|apply va_number; [exact Hp|reflexivity]].
    + apply sk_skip, sk_skip, Rest.
Qed.

Lemma build_act : forall a loaded reqs, act_ok a -> act_plain a ->
  exists n, build_action qin gen_tables loaded (atuple a) reqs = BOk (n, areqs a reqs) /\
            canon_cmd fsep (acmd a) n.
Proof.
  intros a loaded reqs Hok Hpl. exists (anode a). split; [apply (build_anode a loaded reqs Hpl)|apply (canon_anode a Hok)].
Qed.

Lemma opt_args_ok : forall tag o, osok o -> Forall arg_ok (opt_args tag o).
Proof. intros tag [v|] H; repeat constructor. apply (qin_arg_ok v H). Qed.

Lemma flag_args_ok : forall tag b, Forall arg_ok (flag_args tag b).
Proof. intros tag [|]; repeat constructor. Qed.

Lemma qins_arg_ok : forall l, lsok l -> arg_ok (TyStringList, VList (map qin l)).
Proof. intros l H. destruct (lsok_facts l H) as (A & _ & B). split; assumption. Qed.

Lemma aargs_ok : forall a, act_ok a -> Forall arg_ok (aargs a).
Proof.
  intros a H. destruct a as [copy create flags folder|copy addr|reason| | |subject period from addresses handle mime reason];
    cbn [act_ok aargs] in *; repeat (apply Forall_app; split); try apply flag_args_ok; try (apply opt_args_ok, H);
    try (apply Forall_cons; [apply qin_arg_ok, H|apply Forall_nil]); try apply Forall_nil.
  - destruct flags as [x|]; [|apply Forall_nil]. apply Forall_cons; [exact I|]. apply Forall_cons; [apply hv_arg_ok, H|apply Forall_nil].
  - destruct period as [[secs n]|]; [|apply Forall_nil]. repeat (apply Forall_cons; [exact I|]). apply Forall_nil.
  - destruct addresses as [l|]; [|apply Forall_nil]. apply Forall_cons; [exact I|]. apply Forall_cons; [apply qins_arg_ok, H|apply Forall_nil].
Qed.

Lemma acmd_legal : forall a prev,
  get_command_instance gen_tables (aexts a) (aname a) = inl (tdef (aname a)) /\
  d_type (tdef (aname a)) <> CTest /\ d_accept_children (tdef (aname a)) = false /\
  wf_def (tdef (aname a)) = true /\ fixed_arity (tdef (aname a)) = true /\
  follows_name (tdef (aname a)) prev = true /\ d_complete (tdef (aname a)) = HNone /\
  legal (tdef (aname a)) (aexts a) (aargs a) = LComplete (amaps a) (aextra a).
Proof.
  intros a prev. destruct a as [copy create flags folder|copy addr|reason| | |subject period from addresses handle mime reason];
    repeat split; try discriminate.
  - destruct flags as [[s|l]|], copy, create; reflexivity.
  - destruct copy; reflexivity.
  - destruct subject, period as [[[|] pn]|], from, addresses, handle, mime; reflexivity.
Qed.

Lemma wf_anode : forall a L prev, act_ok a -> has_exts L (aexts a) ->
  wf_cmd gen_tables L prev (acmd a) (anode a) L.
Proof.
  intros a L prev Hok HL. pose proof (has_exts_sub _ _ HL) as Hs.
  destruct (acmd_legal a prev) as (G & Ty & Ch & Wf & Fa & Fo & Co & Lg).
  apply wf_act; try assumption.
  - apply (gci_mono _ _ _ _ _ Hs G).
  - apply (aargs_ok a Hok).
  - apply (legal_mono _ _ _ _ _ _ Wf Fa (aargs_ok a Hok) Hs Lg).
  - unfold cb_ok. rewrite Co. reflexivity.
Qed.

Lemma act_wf : forall a L prev, act_ok a -> (forall e, In e (aexts a) -> mem e L = true) ->
  exists n, wf_cmd gen_tables L prev (acmd a) n L.
Proof. intros a L prev Hok HL. exists (anode a). apply (wf_anode a L prev Hok HL). Qed.

End Conds.
