(* ConstFacts.v — the constants of factory.py that the hand-written models repeat are the ones the translator
   tools/gen_factory.py reads from the source on every run (gen/FactoryConsts.v): the tag -> extension map of
   check_if_arg_is_extension, the names a leading "not" negates, the condition keywords of __create_filter's
   dispatch, the command classes get_filter_conditions reads and folds negations into, the classes of
   get_filter_matchtype, the `if` / `false` test of __isdisabled, the default name of a loaded filter.
   A change of one of these in factory.py breaks an obligation here (and is then searched for by the
   differential runs).  A constant the translator could not read (None: the source was restructured) makes its
   obligation vacuous; the translator prints which. *)
From Coq Require Import List NArith Bool.
From Coq Require Import String.
From SV Require Import lib.Bytes sieve.Lexer sieve.Tables sieve.ArgCheck sieve.Machine sieve.GateFacts gen.FactoryConsts
  factory.Text factory.Ops factory.Build factory.Load factory.Read.
Import ListNotations.
Local Close Scope N_scope.

Ltac names :=
  change (bs "true"%string) with k_true in *; change (bs "false"%string) with k_false in *; change (bs "size"%string) with k_size in *;
  change (bs "exists"%string) with k_exists in *; change (bs "envelope"%string) with k_envelope in *;
  change (bs "address"%string) with k_address in *; change (bs "body"%string) with k_body in *;
  change (bs "currentdate"%string) with k_currentdate in *; change (bs "header"%string) with k_header in *;
  change (bs "allof"%string) with k_allof in *; change (bs "anyof"%string) with k_anyof in *.

Definition guarded {A : Type} (o : option A) (P : A -> Prop) : Prop := match o with Some a => P a | None => True end.

(* check_if_arg_is_extension.  In every proof of this file [try exact I] closes the case that the translator read no
   constant (guarded is True then); [all:] goes on with the case that it did, if that is the case at hand. *)
Theorem arg_extension_is_the_map : guarded gen_arg_exts (fun m => forall v reqs,
  arg_extension v reqs =
  match v with
  | FS s => match assoc_get s m with Some e => require e reqs | None => reqs end
  | _ => reqs
  end).
Proof.
  unfold guarded, gen_arg_exts. try exact I.
  all: intros [s|l|d] reqs; try reflexivity. all: unfold arg_extension. all: cbn [assoc_get].
  all: repeat match goal with |- context [beq ?x ?k] => let E := fresh in destruct (beq x k) eqn:E end; try reflexivity;
    repeat match goal with
           | H : beq ?x ?a = true, H' : beq ?x ?b = false |- _ =>
               let X := fresh in assert (X : beq x b = beq x a) by (vm_compute; reflexivity); congruence
           end.
Qed.

(* __create_filter: what a leading "not" negates *)
Theorem negatable_is_the_tuple : guarded gen_negatable (fun l => forall s, negatable s = mem s l).
Proof.
  unfold guarded, gen_negatable. try exact I.
  all: intro s. all: unfold negatable. all: cbn [mem]. all: names.
  all: repeat match goal with |- context [beq ?x ?k] => destruct (beq x k) end; reflexivity.
Qed.

(* __create_filter: the header fallback is taken exactly for the names that are not condition keywords *)
Definition effective_name (s : bytes) : bytes :=
  if starts_with kw_not s && negatable (skipn 3 s) then skipn 3 s else s.

Theorem dispatch_is_the_keywords : guarded gen_dispatch (fun l => forall s,
  snd (cond_kind (FS s)) = KHeader <-> mem (effective_name s) l = false).
Proof.
  unfold guarded, gen_dispatch. try exact I.
  all: intro s. all: unfold cond_kind, effective_name.
  all: match goal with |- context [if ?c then _ else _] => destruct c end; cbv beta iota zeta; cbn [snd mem]; names;
  repeat match goal with |- context [beq ?x ?k] => destruct (beq x k) end; cbn; split; intro H;
    first [reflexivity | discriminate H].
Qed.

(* this one and disabled_classes_ok below only pin the spelling of the constants the models write out *)
Theorem literal_requires_ok : guarded gen_literal_requires (fun l => [k_envelope; k_relational] = l).
Proof. unfold guarded, gen_literal_requires. first [exact I|reflexivity]. Qed.

(* get_filter_conditions *)
Theorem negate_class_ok : guarded gen_negate_class (fun c => k_not = c).
Proof. unfold guarded, gen_negate_class. first [exact I|reflexivity]. Qed.

Theorem readable_is_the_tuple : guarded gen_readable (fun l => forall strip has_comma tolist is_bracket is_digits render n,
  cond_tuple strip has_comma tolist is_bracket is_digits render n = None <-> mem (d_name (node_def n)) l = false).
Proof.
  unfold guarded, gen_readable. try exact I.
  all: intros strip has_comma tolist is_bracket is_digits render n. all: unfold cond_tuple, is_named. all: cbn [mem]. all: names.
  all: repeat match goal with |- context [beq ?x ?k] => destruct (beq x k) end; cbn; split; intro H;
    first [reflexivity | discriminate H].
Qed.

Theorem fold_not_only_there : guarded gen_fold_not (fun groups => forall name args,
  mem name (List.concat groups) = false -> fold_not name args = ROk args).
Proof.
  unfold guarded, gen_fold_not. try exact I.
  all: intros name args H. all: cbn [List.concat app mem] in H. all: names. all: unfold fold_not.
  all: repeat match goal with |- context [beq ?x ?k] => destruct (beq x k) end; cbn in *; try discriminate; reflexivity.
Qed.

(* get_filter_matchtype *)
Theorem matchtype_classes_ok : guarded gen_matchtype_classes (fun l => forall n,
  (is_named n k_anyof || is_named n k_allof) = mem (d_name (node_def n)) l).
Proof.
  unfold guarded, gen_matchtype_classes. try exact I.
  all: intro n. all: unfold is_named. all: cbn [mem]. all: names.
  all: repeat match goal with |- context [beq ?x ?k] => destruct (beq x k) end; reflexivity.
Qed.

(* __isdisabled *)
Theorem disabled_classes_ok : guarded gen_disabled_classes (fun l => [k_if; k_false] = l).
Proof. unfold guarded, gen_disabled_classes. first [exact I|reflexivity]. Qed.

(* from_parser_result *)
Theorem unnamed_prefix_ok : guarded gen_unnamed_prefix (fun p => forall cpt, unnamed cpt = (p ++ dec cpt)%list).
Proof. unfold guarded, gen_unnamed_prefix. try exact I. intro cpt. reflexivity. Qed.

Print Assumptions arg_extension_is_the_map.
Print Assumptions dispatch_is_the_keywords.
Print Assumptions readable_is_the_tuple.
