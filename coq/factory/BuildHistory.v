(* BuildHistory.v — every state of a FiltersSet that is reached through its editing operations from documented
   definitions and holds at least one filter is saved as a script the parser accepts and loads back as the same set
   (C06, C11: "for all sets reached by sequences of add/update/replace/disable/enable/move/remove").

   The operations are those of Build.v (addfilter / updatefilter on real trees, the others through Ops.step);
   the invariant says that the structure of the set is representable (Ops: every filter is a plain tree or
   one `if false` wrapper around one), that every tree ever built is good in the sense of BuildSet.v and that the
   requirements, which only grow, cover all of them. *)
From Coq Require Import List NArith Bool Arith Lia Permutation.
From Coq Require String.
Import String.StringSyntax.
From SV Require Import lib.Bytes lib.BytesFacts sieve.Lexer sieve.Tables sieve.ArgCheck sieve.ArgSpec sieve.Machine sieve.Printer
  sieve.CompleteFacts sieve.CompleteTree sieve.RenderFacts sieve.PrintTree sieve.GateFacts sieve.CanonFacts gen.GenTables
  factory.Text factory.TextFacts factory.Ops factory.OpsFacts factory.Build factory.BuildFacts factory.BuildSet
  factory.Load factory.LoadFacts.
Import ListNotations.
Local Close Scope N_scope.
Local Open Scope string_scope.

Inductive bop :=
| BAdd (name : bytes) (conds : list dcond) (acts : list dact) (anyof : bool)
| BUpdate (old new : bytes) (conds : list dcond) (acts : list dact) (anyof : bool)
| BStep (o : fop).

Definition bapply (loaded : list bytes) (o : bop) (st : bstate) : bres bstate :=
  match o with
  | BAdd n cs acs any =>
      do (r, st') <- b_addfilter gen_tables loaded n (map ctuple cs) (map atuple acs) (mt_name any) st; BOk st'
  | BUpdate a b cs acs any =>
      do (r, st') <- b_updatefilter gen_tables loaded a b (map ctuple cs) (map atuple acs) (mt_name any) st; BOk st'
  | BStep o => BOk (snd (b_step o st))
  end.

Definition defs_ok (cs : list dcond) (acs : list dact) : Prop :=
  cs <> [] /\ Forall cond_ok cs /\ Forall act_ok acs /\ Forall act_plain acs.

(* a content handed to add/update/replace through Ops.step is a tree this set built (what getfilter returns) *)
Definition bop_ok (next : nat) (o : bop) : Prop :=
  match o with
  | BAdd _ cs acs _ | BUpdate _ _ cs acs _ => defs_ok cs acs
  | BStep (FAdd _ c) | BStep (FUpdate _ _ c) | BStep (FReplace _ c _ _) => c < next
  | BStep _ => True
  end.

(* depth 4: `if`, anyof / allof, `not`, the test; the `if false` wrapper makes it 5, the fuel the theorems below ask for *)
Definition node_ok (reqs : list bytes) (n : node) : Prop :=
  exists g exts, good n g exts false /\ dc g <= 4 /\ forall e, In e exts -> mem e reqs = true.

Definition Inv (st : bstate) : Prop :=
  (exists sp, b_set st = map conc sp /\ Forall (fun e => e_id e < b_next st) sp) /\
  kreqs (b_reqs st) /\ NoDup (b_reqs st) /\
  (forall i, i < b_next st -> exists n, node_of_id i (b_nodes st) = Some n /\ node_ok (b_reqs st) n).

Lemma Inv_empty : Inv b_empty.
Proof.
  split; [exists []; split; [reflexivity|constructor]|]. split; [constructor|]. split; [constructor|].
  intros i Hi. cbn in Hi. lia.
Qed.

(* the content an operation hands over is a tree with an id below [N] (what bop_ok asks with N := b_next st) *)
Definition ids_below (N : nat) (o : fop) : Prop :=
  match o with FAdd _ c | FUpdate _ _ c | FReplace _ c _ _ => c < N | _ => True end.

Lemma replace_ids : forall (N : nat) sp a c nn d,
  Forall (fun e => e_id e < N) sp -> c < N -> Forall (fun e => e_id e < N) (snd (spec_step sp (FReplace a c nn d))).
Proof.
  intros N sp a c nn d H Hc. cbn [spec_step].
  destruct (negb (s_exists a sp)); cbn [snd]; [exact H|].
  match goal with |- context [if ?c then _ else _] => destruct c end; cbn [snd]; [exact H|].
  apply Forall_s_update; [exact H|intros e _; exact Hc].
Qed.

Lemma spec_step_ids : forall (N : nat) sp o,
  Forall (fun e => e_id e < N) sp ->
  ids_below N o ->
  Forall (fun e => e_id e < N) (snd (spec_step sp o)).
Proof.
  intros N sp o H Ho. destruct o as [n c|a b c|a c nn d|n|n|n|n up]; cbn [spec_step].
  - destruct (s_exists n sp); cbn [snd]; [exact H|]. apply Forall_app. split; [exact H|constructor; [exact Ho|constructor]].
  - apply (replace_ids N sp a c (Some b) None H Ho).
  - apply (replace_ids N sp a c nn d H Ho).
  - destruct (s_exists n sp); cbn [snd]; [|exact H]. apply (incl_Forall (s_remove_incl n sp) H).
  - destruct (s_find n sp) as [e|]; cbn [snd]; [|exact H]. destruct (e_enabled e); cbn [snd]; [exact H|].
    apply Forall_s_update; [exact H|intros e0 He0; exact He0].
  - destruct (s_exists n sp); cbn [snd]; [|exact H]. apply Forall_s_update; [exact H|intros e0 He0; exact He0].
  - destruct (s_index n sp) as [k|]; cbn [snd]; [|exact H]. destruct up.
    + destruct (Nat.eqb k 0); cbn [snd]; [exact H|]. apply (Permutation_Forall (Permutation_sym (perm_move_up n sp)) H).
    + destruct (Nat.eqb (S k) (length sp)); cbn [snd]; [exact H|].
      apply (Permutation_Forall (Permutation_sym (perm_move_down n sp)) H).
Qed.

Lemma load_exts_nodup : forall l L, NoDup L -> NoDup (load_exts l L).
Proof.
  induction l as [|x l IH]; intros L H; [exact H|]. cbn [load_exts]. apply IH.
  destruct (mem (strip_dq x) L) eqn:E; [exact H|].
  apply (Permutation.Permutation_NoDup (l := strip_dq x :: L)); [apply Permutation.Permutation_cons_append|].
  constructor; [intro I; apply mem_In in I; congruence|exact H].
Qed.

Lemma freqs_nodup : forall conds acts reqs, NoDup reqs -> NoDup (freqs conds acts reqs).
Proof. intros conds acts reqs H. rewrite freqs_load. apply load_exts_nodup, H. Qed.

Lemma max_bound : forall (A : Type) (f : A -> nat) k l, (forall x, In x l -> f x <= k) ->
  fold_right (fun x m => Nat.max (f x) m) 0 l <= k.
Proof.
  intros A f k l H. induction l as [|x r IH]; [cbn; lia|]. cbn [fold_right].
  apply Nat.max_lub; [apply H; left; reflexivity|apply IH; intros y Hy; apply H; right; exact Hy].
Qed.

Lemma dc_fcmd : forall conds acts anyof, dc (std_fcmd conds acts anyof) <= 4.
Proof.
  intros conds acts anyof. unfold std_fcmd, fcmd. cbn [dc dt].
  apply le_n_S. apply Nat.max_lub.
  - apply le_n_S. apply max_bound. intros t Ht. apply in_map_iff in Ht as (d & <- & _).
    unfold gtest_of. destruct (cneg d); cbn [dt ctest]; lia.
  - apply (Nat.le_trans _ 1); [|lia]. apply max_bound. intros c Hc. apply in_map_iff in Hc as (a & <- & _). cbn. lia.
Qed.

Lemma node_ok_mono : forall reqs reqs' n, sub reqs reqs' -> node_ok reqs n -> node_ok reqs' n.
Proof.
  intros reqs reqs' n Hs (g & exts & Hg & Hd & He). exists g, exts. split; [exact Hg|]. split; [exact Hd|].
  intros e H. apply Hs, He, H.
Qed.

Lemma step_inv : forall o st, Inv st ->
  ids_below (b_next st) o ->
  Inv (snd (b_step o st)).
Proof.
  intros o st ((sp & Hsp & Hids) & Hk & Hnd & Hn) Ho. unfold b_step. rewrite Hsp, step_refines. cbn [snd fst].
  split; [|split; [exact Hk|split; [exact Hnd|exact Hn]]].
  exists (snd (spec_step sp o)). split; [reflexivity|]. cbn [b_next]. apply spec_step_ids; assumption.
Qed.

Lemma new_tree_inv : forall st sp' n conds acts anyof,
  Inv st ->
  good n (std_fcmd conds acts anyof) (fexts conds acts) false ->
  Forall (fun e => e_id e < S (b_next st)) sp' ->
  Inv (mkB (map conc sp') ((b_next st, n) :: b_nodes st) (freqs conds acts (b_reqs st)) (S (b_next st))).
Proof.
  intros st sp' n conds acts anyof (_ & Hk & Hnd & Hn) Hg Hids.
  split; [exists sp'; split; [reflexivity|exact Hids]|].
  split; [apply freqs_known; exact Hk|]. split; [apply freqs_nodup; exact Hnd|].
  cbn [b_next b_nodes b_reqs]. intros i Hi. cbn [node_of_id].
  destruct (Nat.eqb i (b_next st)) eqn:E.
  - exists n. split; [reflexivity|]. exists (std_fcmd conds acts anyof), (fexts conds acts).
    split; [exact Hg|]. split; [apply dc_fcmd|]. intros e He. apply freqs_covers. exact He.
  - apply Nat.eqb_neq in E. destruct (Hn i ltac:(lia)) as (n0 & Hn0 & Hok). exists n0. split; [exact Hn0|].
    apply (node_ok_mono (b_reqs st)); [apply freqs_grows|exact Hok].
Qed.

Lemma new_filter_inv : forall loaded st conds acts anyof o,
  Inv st -> defs_ok conds acts ->
  ids_below (S (b_next st)) o ->
  exists n, create_filter quote_if_necessary quote_list gen_tables loaded (map ctuple conds) (map atuple acts) (mt_name anyof) (b_reqs st) =
            BOk (n, freqs conds acts (b_reqs st)) /\
            Inv (mkB (snd (step (b_set st) o)) ((b_next st, n) :: b_nodes st) (freqs conds acts (b_reqs st)) (S (b_next st))).
Proof.
  intros loaded st conds acts anyof o HI Hd Ho. pose proof Hd as (Hne & Hc & Ha & Hp).
  destruct (factory_filter_good loaded conds acts anyof (b_reqs st) Hne Hc Ha Hp) as (n & Hb & Hg).
  exists n. split; [exact Hb|]. pose proof HI as ((sp & Hsp & Hids) & _). rewrite Hsp, step_refines. cbn [snd].
  apply (new_tree_inv st _ n conds acts anyof HI Hg).
  apply spec_step_ids; [eapply Forall_impl; [|exact Hids]; cbn; intros; lia|exact Ho].
Qed.

Theorem bapply_inv : forall loaded o st, Inv st -> bop_ok (b_next st) o ->
  exists st', bapply loaded o st = BOk st' /\ Inv st'.
Proof.
  intros loaded o st HI Ho. destruct o as [name conds acts anyof|old new conds acts anyof|o]; cbn [bapply bop_ok] in *.
  - unfold b_addfilter. destruct (exists_name name (b_set st)); [exists st; split; [reflexivity|exact HI]|].
    destruct (new_filter_inv loaded st conds acts anyof (FAdd name (b_next st)) HI Ho (le_n _)) as (n & Hb & HI'). rewrite Hb. cbn [bbind].
    cbn [step] in HI'. destruct (op_add name (Plain (b_next st)) (b_set st)) as [rv s']. eexists. split; [reflexivity|exact HI'].
  - unfold b_updatefilter. destruct (find_first old (b_set st)); [|exists st; split; [reflexivity|exact HI]].
    destruct (negb (beq new old) && exists_name new (b_set st)); [exists st; split; [reflexivity|exact HI]|].
    destruct (new_filter_inv loaded st conds acts anyof (FUpdate old new (b_next st)) HI Ho (le_n _)) as (n & Hb & HI'). rewrite Hb. cbn [bbind].
    cbn [step] in HI'. destruct (op_update old new (Plain (b_next st)) (b_set st)) as [rv s']. eexists. split; [reflexivity|exact HI'].
  - eexists. split; [reflexivity|]. apply step_inv; [exact HI|]. destruct o; auto.
Qed.

Inductive reach (loaded : list bytes) : bstate -> Prop :=
| reach_empty : reach loaded b_empty
| reach_step : forall st o st', reach loaded st -> bop_ok (b_next st) o -> bapply loaded o st = BOk st' -> reach loaded st'.

Theorem reach_inv : forall loaded st, reach loaded st -> Inv st.
Proof.
  intros loaded st H. induction H as [|st o st' _ IH Ho Ha]; [apply Inv_empty|].
  destruct (bapply_inv loaded o st IH Ho) as (st2 & E & HI). rewrite E in Ha. injection Ha as <-. exact HI.
Qed.

(* stated over filters of a set because lines_ok and sf_cms are; only the name and the description of [x] matter *)
Definition names_ok (name_pre desc_pre : bytes) (s : fset) : Prop :=
  forall x : sfilter, In (sf_name x, sf_desc x) (map (fun f => (f_name f, f_desc f)) s) ->
    Forall hash_ok (sf_cms name_pre desc_pre x) /\ lines_ok name_pre desc_pre x.

Definition desc_text (d : option bytes) : bytes := match d with Some (c :: t) => c :: t | _ => [] end.

(* the filter of the saved set that stands for an entry of the reference list *)
Definition sf_of (e : entry) (x : sfilter) : Prop :=
  sf_name x = e_name e /\ sf_desc x = e_desc e /\ sf_dis x = negb (e_enabled e).

Lemma bfilters_ok : forall loaded nodes reqs next sp,
  Forall (fun e => e_id e < next) sp ->
  (forall i, i < next -> exists n, node_of_id i nodes = Some n /\ node_ok reqs n) ->
  exists sfs, bfilters gen_tables loaded nodes (map conc sp) = BOk (map sf_bf sfs) /\
              Forall (fun x => good (sf_node x) (sf_g x) (sf_exts x) (sf_dis x) /\
                               (forall e, In e (sf_exts x) -> mem e reqs = true) /\ dc (sf_g x) <= 5) sfs /\
              Forall2 sf_of sp sfs.
Proof.
  intros loaded nodes reqs next sp Hids Hn. induction Hids as [|e r He Hr IH].
  - exists []. repeat split; constructor.
  - destruct IH as (sfs & Hb & Hok & Hm). destruct (Hn (e_id e) He) as (n & Hid & g & exts & Hg & Hd & Hc).
    cbn [map bfilters]. set (rest := map conc r) in *. unfold conc. cbn [f_content f_name f_enabled f_desc].
    destruct (e_enabled e) eqn:En.
    + cbn [content_node]. rewrite Hid. cbn [bbind]. rewrite Hb. cbn [bbind].
      exists (mkSF (e_name e) (e_desc e) n g exts false :: sfs). split; [reflexivity|]. split.
      * constructor; [|exact Hok]. cbn [sf_node sf_g sf_exts sf_dis]. split; [exact Hg|]. split; [exact Hc|lia].
      * constructor; [|exact Hm]. unfold sf_of. rewrite En. auto.
    + cbn [content_node]. rewrite Hid. cbn [bbind].
      destruct (wrap_good loaded n g exts false Hg) as (n' & Hw & Hg'). rewrite Hw. cbn [bbind]. rewrite Hb. cbn [bbind].
      exists (mkSF (e_name e) (e_desc e) n' (wrapped g) exts true :: sfs). split; [reflexivity|]. split.
      * constructor; [|exact Hok]. cbn [sf_node sf_g sf_exts sf_dis]. split; [exact Hg'|]. split; [exact Hc|unfold wrapped; cbn [dc dt fold_right]; lia].
      * constructor; [|exact Hm]. unfold sf_of. rewrite En. auto.
Qed.

Lemma sf_of_ok : forall name_pre desc_pre reqs fuel sp sfs,
  Forall2 sf_of sp sfs -> 5 <= fuel -> names_ok name_pre desc_pre (map conc sp) ->
  Forall (fun x => good (sf_node x) (sf_g x) (sf_exts x) (sf_dis x) /\
                   (forall e, In e (sf_exts x) -> mem e reqs = true) /\ dc (sf_g x) <= 5) sfs ->
  Forall (sf_ok name_pre desc_pre reqs fuel) sfs /\ Forall (lines_ok name_pre desc_pre) sfs.
Proof.
  intros name_pre desc_pre reqs fuel sp sfs Hm Hfuel. induction Hm as [|e x sp sfs (E1 & E2 & _) _ IH]; intros Hnames Hok; [split; constructor|].
  inversion Hok as [|x' l' (Hg & Hc & Hd) Hokr]; subst.
  destruct (Hnames x) as (Hh & Hl); [left; cbn [conc f_name f_desc]; rewrite E1, E2; reflexivity|].
  destruct IH as (I1 & I2); [intros y Hy; apply Hnames; right; exact Hy|exact Hokr|].
  split; constructor; try assumption. split; [exact Hg|]. split; [exact Hc|]. split; [exact Hh|lia].
Qed.

Lemma sf_of_loaded : forall sp sfs lfs,
  Forall2 sf_of sp sfs ->
  Forall2 (fun x f => lf_name f = sf_name x /\ lf_desc f = desc_of x /\ lf_enabled f = negb (sf_dis x)) sfs lfs ->
  map (fun f => (lf_name f, lf_desc f, lf_enabled f)) lfs =
  map (fun e => (e_name e, desc_text (e_desc e), e_enabled e)) sp.
Proof.
  intros sp sfs lfs Hm. revert lfs.
  induction Hm as [|e x sp sfs (E1 & E2 & E3) _ IH]; intros lfs Hlf; inversion Hlf as [|x' f l' lfs' (A & B & C) Hr]; subst; [reflexivity|].
  cbn [map]. rewrite A, B, C, (IH _ Hr), E1, E3, negb_involutive. unfold desc_of, desc_text. rewrite E2. reflexivity.
Qed.

(* C06 + C11 for every reachable set: the saved text is accepted and loads back as the same set *)
Theorem inv_reload : forall loaded st name_pre desc_pre fuel,
  Inv st -> b_set st <> [] -> 5 <= fuel ->
  marker_ok name_pre -> marker_ok desc_pre -> names_ok name_pre desc_pre (b_set st) ->
  exists text ns lfs,
    b_render gen_tables loaded fuel name_pre desc_pre st = BOk text /\
    parse gen_tables text = Accept ns /\
    from_parser_result name_pre desc_pre ns = (b_reqs st, lfs) /\
    map (fun f => (lf_name f, lf_desc f, lf_enabled f)) lfs =
    map (fun f => (f_name f, desc_text (f_desc f), f_enabled f)) (b_set st).
Proof.
  intros loaded st name_pre desc_pre fuel ((sp & Hsp & Hids) & Hk & Hnd & Hn) Hne Hfuel Hnp Hdp Hnames.
  destruct (bfilters_ok loaded (b_nodes st) (b_reqs st) (b_next st) sp Hids Hn) as (sfs & Hb & Hok & Hm).
  unfold b_render. rewrite Hsp in *. rewrite Hb. cbn [bbind].
  destruct (sf_of_ok name_pre desc_pre (b_reqs st) fuel sp sfs Hm Hfuel Hnames Hok) as (Hsf & Hlines).
  assert (Hsne : sfs <> []) by (intro E; subst sfs; inversion Hm; subst; apply Hne; reflexivity).
  destruct (reload_same name_pre desc_pre Hnp Hdp loaded fuel (b_reqs st) sfs Hsne Hk Hnd Hsf Hlines ltac:(lia))
    as (text & ns & lfs & Hr & Hp & Hl & Hlf).
  exists text, ns, lfs. split; [exact Hr|]. split; [exact Hp|]. split; [exact Hl|].
  rewrite map_map. apply (sf_of_loaded sp sfs lfs Hm Hlf).
Qed.

Corollary history_reload : forall loaded st name_pre desc_pre fuel,
  reach loaded st -> b_set st <> [] -> 5 <= fuel ->
  marker_ok name_pre -> marker_ok desc_pre -> names_ok name_pre desc_pre (b_set st) ->
  exists text ns lfs,
    b_render gen_tables loaded fuel name_pre desc_pre st = BOk text /\
    parse gen_tables text = Accept ns /\
    from_parser_result name_pre desc_pre ns = (b_reqs st, lfs) /\
    map (fun f => (lf_name f, lf_desc f, lf_enabled f)) lfs =
    map (fun f => (f_name f, desc_text (f_desc f), f_enabled f)) (b_set st).
Proof. intros loaded st np dp fuel H. apply inv_reload. apply (reach_inv loaded st H). Qed.

(* documented operations never fail: every history runs *)
Corollary history_runs : forall loaded st o, reach loaded st -> bop_ok (b_next st) o ->
  exists st', bapply loaded o st = BOk st' /\ reach loaded st'.
Proof.
  intros loaded st o H Ho. destruct (bapply_inv loaded o st (reach_inv loaded st H) Ho) as (st' & E & _).
  exists st'. split; [exact E|]. eapply reach_step; eassumption.
Qed.

Print Assumptions history_reload.
Print Assumptions history_runs.

(* C12 on real trees: the enabled flag, the `if false` wrapper in the rendered script and what a reload sees agree *)

Lemma load_from_flags : forall np dp ns cpt reqs,
  Forall (fun f => lf_enabled f = negb (is_if_false (lf_content f))) (snd (load_from np dp cpt ns reqs)).
Proof.
  intros np dp ns. induction ns as [|n r IH]; intros cpt reqs; cbn [load_from]; [constructor|].
  destruct (is_require n); [apply IH|].
  destruct (fold_left (load_comment np dp) (node_comments n) (unnamed cpt, [])) as [name desc].
  specialize (IH (cpt + 1)%N reqs). destruct (load_from np dp (cpt + 1) r reqs) as [rq fs]. cbn [snd] in *.
  constructor; [reflexivity|exact IH].
Qed.

Corollary history_flags_agree : forall loaded st name_pre desc_pre fuel,
  reach loaded st -> b_set st <> [] -> 5 <= fuel ->
  marker_ok name_pre -> marker_ok desc_pre -> names_ok name_pre desc_pre (b_set st) ->
  exists text ns lfs,
    b_render gen_tables loaded fuel name_pre desc_pre st = BOk text /\
    parse gen_tables text = Accept ns /\
    snd (from_parser_result name_pre desc_pre ns) = lfs /\
    map (fun f => negb (is_if_false (lf_content f))) lfs = map f_enabled (b_set st).
Proof.
  intros loaded st np dp fuel H Hne Hf Hnp Hdp Hn.
  destruct (history_reload loaded st np dp fuel H Hne Hf Hnp Hdp Hn) as (text & ns & lfs & Hr & Hp & Hl & Hm).
  exists text, ns, lfs. split; [exact Hr|]. split; [exact Hp|]. split; [rewrite Hl; reflexivity|].
  pose proof (load_from_flags np dp ns 1%N []) as Hfl. unfold from_parser_result in Hl. rewrite Hl in Hfl. cbn [snd] in Hfl.
  apply (f_equal (map (fun t : bytes * bytes * bool => snd t))) in Hm. rewrite !map_map in Hm. cbn [snd] in Hm.
  transitivity (map lf_enabled lfs); [|exact Hm].
  clear - Hfl. induction Hfl as [|f l Hf _ IH]; [reflexivity|]. cbn [map]. rewrite Hf, IH. reflexivity.
Qed.

Print Assumptions history_flags_agree.
