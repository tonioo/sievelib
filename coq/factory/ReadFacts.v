(* ReadFacts.v — what you put into a filter is what you read back (C19).

   For the documented condition forms of rcond_ok (header with one name and one key, exists, size, envelope, body,
   currentdate) whose values are free of commas, double quotes and backslashes (the class on
   which tools.to_list inverts the quoting: TextFacts), the tree __create_filter builds (factory/Build.v) is read
   back by get_filter_conditions (factory/Read.v) as exactly the tuples that were supplied, negated forms included;
   get_filter_matchtype gives the match type and get_filter_actions the actions written with positional strings
   and value-less tags. *)
From Coq Require Import List NArith Bool Arith Lia.
From Coq Require String.
Import String.StringSyntax.
From SV Require Import lib.Bytes sieve.Lexer sieve.Tables sieve.ArgCheck sieve.ArgSpec sieve.Machine sieve.Printer
  sieve.CompleteFacts sieve.CompleteTree sieve.RenderFacts sieve.PrintTree sieve.GateFacts gen.GenTables
  factory.Text factory.TextFacts factory.Ops factory.Build factory.BuildFacts factory.BuildSet factory.Read.
Import ListNotations.
Local Close Scope N_scope.
Local Open Scope string_scope.

Definition fv_rv (v : fv) : rv := match v with FS s => RS s | FL l => RL l | FI d => RI d end.
Lemma map_fs_rs : forall l, map fv_rv (map FS l) = map RS l.
Proof. induction l as [|x l IH]; [reflexivity|]. cbn [map fv_rv]. rewrite IH. reflexivity. Qed.

(* the tuple the caller wrote (expected_is_supplied), spelled out per form with [map RS names] where ctuple has
   [map FS names]: this is the shape the readers compute, so that [reflexivity] can compare.  The other forms
   (address, true, false) are not read back. *)
Definition expected (d : dcond) : rtuple :=
  match d with
  | DHeader neg m h v => [fv_rv (hv_fv h); RS (mt_b neg m); fv_rv (hv_fv v)]
  | DExists neg names => RS (if neg then bs "notexists" else bs "exists") :: map RS names
  | DSize neg over n => [RS (if neg then bs "notsize" else bs "size"); RS (if over then bs ":over" else bs ":under"); RI n]
  | DEnvelope neg m hs ks => [RS (bs "envelope"); RS (mt_b neg m); RL hs; RL ks]
  | DBody neg raw m vals => RS (bs "body") :: RS (if raw then bs ":raw" else bs ":text") :: RS (mt_b neg m) :: map RS vals
  | DCurrentdate neg zone m part keys =>
      RS (bs "currentdate") :: RS (bs ":zone") :: RS zone :: RS (mt_b neg m) :: RS part :: map RS keys
  | DCurrentdateValue zone r part keys =>
      RS (bs "currentdate") :: RS (bs ":zone") :: RS zone :: RS (bs ":value") :: RS (rel_b r) :: RS part :: map RS keys
  | _ => map fv_rv (ctuple d)
  end.

Lemma expected_is_supplied : forall d, expected d = map fv_rv (ctuple d).
Proof.
  intros d. destruct d; cbn [expected ctuple map fv_rv]; rewrite ?map_fs_rs; try reflexivity.
Qed.

(* one step of Command.walk, the recursive calls abstracted *)
Definition walk_step (w : node -> list node) (n : node) : list node :=
  n ::
  flat_map (fun a =>
              match assoc_get (a_name a) (node_args n) with
              | Some (VTests l) => match a_type a with [TyTestList] => flat_map w l | _ => [] end
              | Some (VTest t) => w t
              | _ => []
              end) (d_args (node_def n))
  ++ flat_map w (node_children n).

Lemma walk_S : forall k n, walk (S k) n = walk_step (walk k) n.
Proof. reflexivity. Qed.

Section ReadBack.
Variable qin : bytes -> bytes.
Variable qlist : list bytes -> bytes.
Variable strip : bytes -> bytes.
Variable has_comma : bytes -> bool.
Variable tolist : bool -> bytes -> list bytes.
Variable is_bracket : bytes -> bool.
Variable is_digits : bytes -> bool.
Variable render : list bytes -> bytes.

(* a readable string / list: not quoted already, free of commas, double quotes and backslashes *)
Definition rd (s : bytes) : Prop := vok s /\ plain s = true.
Definition lrd (l : list bytes) : Prop := l <> [] /\ Forall (fun v => plain v = true) l.

Hypothesis Hstrip : forall s, rd s -> strip (qin s) = s.
Hypothesis Hcomma : forall s, rd s -> has_comma (qin s) = false.
Hypothesis Hbr_s : forall s, rd s -> is_bracket (qin s) = false.
Hypothesis Hbr_l : forall l, is_bracket (qlist l) = true.
Hypothesis Hlist : forall l, lrd l -> tolist true (qlist l) = l.
Hypothesis Hdig : forall n, all_digits n = true -> is_digits n = true.

(* the condition forms the property lists for read-back (address: known finding; true/false are not conditions
   get_filter_conditions reports) *)
Definition rcond_ok (d : dcond) : Prop :=
  match d with
  | DHeader _ _ (HStr h) (HStr v) => hdr_ok (HStr h) /\ rd h /\ rd v
  | DExists _ names => lrd names
  | DSize _ _ n => all_digits n = true
  | DEnvelope _ _ hs ks => lrd hs /\ lrd ks
  | DBody _ _ _ vals => lrd vals
  | DCurrentdate _ zone _ part keys => rd zone /\ rd part /\ lrd keys
  | DCurrentdateValue zone _ part keys => rd zone /\ rd part /\ lrd keys
  | _ => False
  end.

(* the tuple args_as_tuple returns before the negation is folded in *)
Definition traw (d : dcond) : rtuple :=
  match d with
  | DHeader _ m h v => [fv_rv (hv_fv h); RS (mtag_b m); fv_rv (hv_fv v)]
  | DExists _ names => RS (bs "exists") :: map RS names
  | DSize _ over n => [RS (bs "size"); RS (if over then bs ":over" else bs ":under"); RI n]
  | DEnvelope _ m hs ks => [RS (bs "envelope"); RS (mtag_b m); RL hs; RL ks]
  | DBody _ raw m vals => RS (bs "body") :: RS (if raw then bs ":raw" else bs ":text") :: RS (mtag_b m) :: map RS vals
  | DCurrentdate _ zone m part keys =>
      RS (bs "currentdate") :: RS (bs ":zone") :: RS zone :: RS (mtag_b m) :: RS part :: map RS keys
  | DCurrentdateValue zone r part keys =>
      RS (bs "currentdate") :: RS (bs ":zone") :: RS zone :: RS (bs ":value") :: RS (rel_b r) :: RS part :: map RS keys
  | _ => expected d
  end.

Ltac rfacts :=
  repeat match goal with
         | H : _ /\ _ |- _ => destruct H
         | H : rd ?s |- _ =>
             pose proof (Hstrip s H); pose proof (Hcomma s H); clear H
         | H : lrd ?l |- _ => pose proof (Hlist l H); pose proof (Hbr_l l); clear H
         end.

(* evaluate the reader, replacing what it asks of the helpers by what the hypotheses say *)
Ltac run_read :=
  vm_compute;
  repeat (progress (repeat match goal with
                           | E : strip _ = _ |- _ => rewrite E
                           | E : has_comma _ = _ |- _ => rewrite E
                           | E : is_bracket _ = _ |- _ => rewrite E
                           | E : tolist _ _ = _ |- _ => rewrite E
                           | E : is_digits _ = _ |- _ => rewrite E
                           end); vm_compute);
  reflexivity.

Hypothesis qin_eq : forall s, vok s -> qin s = quote s.

Definition no_test (v : aval) : Prop := match v with VTest _ | VTests _ => False | _ => True end.

Lemma leaf_walk : forall D am em k, Forall (fun kv => no_test (snd kv)) am ->
  walk (S k) (Node D am em [] []) = [Node D am em [] []].
Proof.
  intros D am em k H. rewrite walk_S. unfold walk_step. cbn [node_def node_args node_children flat_map].
  rewrite app_nil_r. f_equal. induction (d_args D) as [|a r IH]; [reflexivity|]. cbn [flat_map]. rewrite IH, app_nil_r.
  destruct (assoc_get (a_name a) am) as [v|] eqn:E; [|reflexivity].
  apply BytesFacts.assoc_get_In in E. rewrite Forall_forall in H. specialize (H _ E). destruct v; try reflexivity; contradiction.
Qed.

Lemma cmaps_no_test : forall lv d, (forall l, no_test (lv l)) -> Forall (fun kv => no_test (snd kv)) (cmaps qin lv d).
Proof.
  intros lv d H. destruct d as [neg m [s|l] [s2|l2]|neg names|neg over n|neg m hs ks|neg m [s|l] [s2|l2]|neg raw m vals|neg zone m part keys|zone r part keys| |];
    repeat constructor; apply H.
Qed.

Lemma ctest_name : forall d, d_name (tdef (cname d)) = cname d /\ d_type (tdef (cname d)) = CTest.
Proof. intros [ | | | | | | | | | ]; split; reflexivity. Qed.

Lemma leaf_kind : forall d am em,
  is_named (Node (tdef (cname d)) am em [] []) k_not = false /\ is_action (Node (tdef (cname d)) am em [] []) = false.
Proof.
  intros d am em. unfold is_named, is_action. cbn [node_def]. destruct (ctest_name d) as (-> & ->).
  split; [destruct d; reflexivity|reflexivity].
Qed.

Lemma fold_not_expected : forall d,
  (if cneg d then fold_not (d_name (tdef (cname d))) (traw d) else ROk (traw d)) = ROk (expected d).
Proof.
  intros d. rewrite (proj1 (ctest_name d)).
  destruct d as [neg m [s|l] [s2|l2]|neg names|neg over n|neg m hs ks|neg m hs ks|neg raw m vals|neg zone m part keys|zone r part keys| |];
    first [destruct neg, m; reflexivity | destruct neg; reflexivity | reflexivity].
Qed.

Lemma rcond_buildable : forall d, rcond_ok d -> buildable d.
Proof. intros [neg m [s|l] [s2|l2]| | | | | | | | |] H; try exact I; try contradiction. apply H. Qed.

Lemma cnode_tuple : forall d, rcond_ok d ->
  cond_tuple strip has_comma tolist is_bracket is_digits render (cnode qin qlist d) = Some (ROk (traw d)).
Proof using Hstrip Hcomma Hbr_s Hbr_l Hlist Hdig qin_eq.   (* Hbr_s: none of these forms asks it; read_cond is stated with it *)
  intros d Hok.
  destruct d as [neg m h v|neg names|neg over n|neg m hs ks|neg m hs ks|neg raw m vals|neg zone m part keys|zone r part keys| |];
    cbn [rcond_ok] in Hok; try contradiction.
  - destruct h as [s|l], v as [s2|l2]; try contradiction. rfacts. destruct m; run_read.
  - rfacts. run_read.
  - pose proof (Hdig n Hok). destruct over; run_read.
  - rfacts. destruct m; run_read.
  - rfacts. destruct raw, m; run_read.
  - rfacts. destruct m; run_read.
  - assert (Hr : strip (quote (rel_b r)) = rel_b r).
    { rewrite <- (qin_eq (rel_b r)) by (apply vokb_ok; destruct r; reflexivity).
      apply Hstrip. split; [apply vokb_ok|]; destruct r; reflexivity. }
    rfacts. destruct r; vm_compute in Hr; run_read.
Qed.

Lemma read_cond : forall d loaded reqs, rcond_ok d ->
  exists f, build_test qin qlist gen_tables loaded (ctuple d) reqs = BOk (f, cneg d, creqs d reqs) /\
            is_named (done f) k_not = false /\
            cond_tuple strip has_comma tolist is_bracket is_digits render (done f) = Some (ROk (traw d)) /\
            (forall k, walk (S k) (done f) = [done f]) /\
            (if cneg d then fold_not (d_name (node_def (done f))) (traw d) else ROk (traw d)) = ROk (expected d) /\
            is_action (done f) = false.
Proof.
  intros d loaded reqs Hok. exists (full_frame (tdef (cname d)) (cmaps qin (as_text qlist) d) (cextra qin d)).
  destruct (leaf_kind d (cmaps qin (as_text qlist) d) (cextra qin d)) as (Hn & Ha).
  split; [|split; [exact Hn|split; [apply (cnode_tuple d Hok)|split; [|split; [apply (fold_not_expected d)|exact Ha]]]]].
  - apply (build_frame qin qlist qin_eq), rcond_buildable, Hok.
  - intro k. apply leaf_walk, cmaps_no_test. intro l. exact I.
Qed.

Notation conditions := (conditions_of strip has_comma tolist is_bracket is_digits render).
Notation actions := (actions_of strip has_comma tolist).

Definition skipped (n : node) : Prop :=
  is_named n k_not = false /\ cond_tuple strip has_comma tolist is_bracket is_digits render n = None.

Lemma conditions_app_skip : forall l rest neg, Forall skipped l -> conditions (l ++ rest) neg = conditions rest neg.
Proof.
  induction l as [|n l IH]; intros rest neg H; [reflexivity|]. inversion H as [|n' l' [H1 H2] Hl]; subst.
  cbn [app conditions_of]. rewrite H1, H2. apply IH. exact Hl.
Qed.

(* what the walk over a test of the filter contributes: one condition, read as the tuple [t], and no action *)
Definition reads_as (n : node) (t : rtuple) : Prop :=
  forall k rest, conditions (walk (S (S k)) n ++ rest) false = (rdo more <- conditions rest false; ROk (t :: more)) /\
                 actions (walk (S (S k)) n ++ rest) = actions rest.

Lemma walk_not : forall k n0, walk (S (S k)) (not_node n0) = not_node n0 :: walk (S k) n0.
Proof. intros k n0. rewrite (walk_S (S k)). unfold walk_step, not_node. cbn. rewrite !app_nil_r. reflexivity. Qed.

Lemma leaf_reads_as : forall d n0,
  is_named n0 k_not = false ->
  cond_tuple strip has_comma tolist is_bracket is_digits render n0 = Some (ROk (traw d)) ->
  (forall k, walk (S k) n0 = [n0]) ->
  (if cneg d then fold_not (d_name (node_def n0)) (traw d) else ROk (traw d)) = ROk (expected d) ->
  is_action n0 = false ->
  reads_as (if cneg d then not_node n0 else n0) (expected d).
Proof.
  intros d n0 Hnn Hct Hw Hf Hna k rest. destruct (cneg d).
  - rewrite walk_not, Hw. cbn [app conditions_of actions_of].
    change (is_named (not_node n0) k_not) with true. change (is_action (not_node n0)) with false.
    rewrite Hnn, Hct, Hna. cbn [rbind]. rewrite Hf. split; reflexivity.
  - rewrite Hw. cbn [app conditions_of actions_of]. rewrite Hnn, Hct, Hna. cbn [rbind]. injection Hf as ->. split; reflexivity.
Qed.

Lemma reads_all : forall ns ts, Forall2 reads_as ns ts -> forall k rest,
  conditions (flat_map (walk (S (S k))) ns ++ rest) false = (rdo more <- conditions rest false; ROk (ts ++ more)%list) /\
  actions (flat_map (walk (S (S k))) ns ++ rest) = actions rest.
Proof.
  induction 1 as [|n t ns ts Hn _ IH]; intros k rest; cbn [flat_map app].
  - split; [destruct (conditions rest false); reflexivity|reflexivity].
  - rewrite <- app_assoc. destruct (Hn k (flat_map (walk (S (S k))) ns ++ rest)%list) as (S1 & S2).
    destruct (IH k rest) as (R1 & R2). rewrite S1, S2, R1, R2.
    split; [destruct (conditions rest false); reflexivity|reflexivity].
Qed.

Lemma walk_if_node : forall k anyof ns kids,
  walk (S (S (S (S k)))) (if_node (mt_node anyof ns) kids) =
  if_node (mt_node anyof ns) kids :: mt_node anyof ns :: flat_map (walk (S (S k))) ns ++ flat_map (walk (S (S (S k)))) kids.
Proof.
  intros k anyof ns kids.
  assert (Wm : walk (S (S (S k))) (mt_node anyof ns) = mt_node anyof ns :: flat_map (walk (S (S k))) ns).
  { rewrite (walk_S (S (S k))). generalize (walk (S (S k))). intro w. unfold walk_step.
    destruct anyof; cbn; rewrite !app_nil_r; reflexivity. }
  rewrite (walk_S (S (S (S k)))), app_comm_cons, <- Wm. generalize (walk (S (S (S k)))). intro w.
  unfold walk_step. cbn. rewrite !app_nil_r. reflexivity.
Qed.

(* fuel 4: the walk goes through `if`, anyof / allof, `not`, the test *)
Theorem readers_on_filter : forall anyof ns ts kids fuel,
  Forall2 reads_as ns ts -> (forall k, flat_map (walk (S k)) kids = kids) -> 4 <= fuel ->
  (Forall skipped kids ->
   get_conditions strip has_comma tolist is_bracket is_digits render fuel (if_node (mt_node anyof ns) kids) = ROk ts) /\
  get_matchtype fuel (if_node (mt_node anyof ns) kids) = Some (mt_name anyof) /\
  get_actions strip has_comma tolist fuel (if_node (mt_node anyof ns) kids) = actions kids.
Proof.
  intros anyof ns ts kids fuel Hns Hk Hfuel. destruct fuel as [|[|[|[|k]]]]; try lia.
  unfold get_conditions, get_matchtype, get_actions. rewrite walk_if_node, Hk.
  destruct (reads_all ns ts Hns k kids) as (Rc & Ra).
  assert (S1 : skipped (if_node (mt_node anyof ns) kids)) by (split; reflexivity).
  assert (S2 : skipped (mt_node anyof ns)) by (destruct anyof; split; reflexivity).
  split; [|split].
  - intro Fk. destruct S1 as (N1 & C1), S2 as (N2 & C2). cbn [conditions_of]. rewrite N1, C1, N2, C2, Rc.
    rewrite <- (app_nil_r kids), (conditions_app_skip kids [] false Fk). cbn [conditions_of rbind]. rewrite app_nil_r. reflexivity.
  - cbn [matchtype_of]. change (is_named (if_node (mt_node anyof ns) kids) k_anyof || is_named (if_node (mt_node anyof ns) kids) k_allof) with false.
    destruct anyof; reflexivity.
  - cbn [actions_of]. change (is_action (if_node (mt_node anyof ns) kids)) with false.
    replace (is_action (mt_node anyof ns)) with false by (destruct anyof; reflexivity). exact Ra.
Qed.

Lemma cnode_reads : forall d, rcond_ok d -> reads_as (gnode (cnode qin qlist) d) (expected d).
Proof.
  intros d Hok. destruct (leaf_kind d (cmaps qin (as_text qlist) d) (cextra qin d)) as (Hn & Ha).
  apply leaf_reads_as; [exact Hn|apply (cnode_tuple d Hok)| |apply (fold_not_expected d)|exact Ha].
  intro k. apply leaf_walk, cmaps_no_test. intro l. exact I.
Qed.

Lemma slots_no_tests : forall sw d am em defs args (w : node -> list node),
  slots_args sw d am em defs args ->
  flat_map (fun a => match assoc_get (a_name a) am with
                     | Some (VTests l) => match a_type a with [TyTestList] => flat_map w l | _ => [] end
                     | Some (VTest t) => w t
                     | _ => []
                     end) defs = [].
Proof.
  intros sw d am em defs args w H.
  induction H as [|a rest args Ha H IH|a rest args s0 Ht Ha Hs Hno H IH|a rest args s0 ev ex p Ht Ha Hs He Hex Hv H IH
                  |a rest args v p Ht Ha Hv H IH]; cbn [flat_map]; rewrite ?Ha, ?IH; try reflexivity.
  destruct Hv; reflexivity.
Qed.

Lemma act_skip : forall a n, canon_cmd fsep (acmd qin a) n ->
  (forall k, walk (S k) n = [n]) /\ is_named n k_not = false /\
  cond_tuple strip has_comma tolist is_bracket is_digits render n = None.
Proof.
  intros a n H. unfold acmd in H. inversion H as [d args am em Hid Hty Hch Hs Hg Hn| |]; subst.
  assert (Hname : d_name d = aname a) by congruence.
  split; [|split].
  - intro k. rewrite walk_S. unfold walk_step. cbn [node_def node_args node_children flat_map].
    rewrite (slots_no_tests _ _ _ _ _ _ (walk k) Hs). reflexivity.
  - unfold is_named. cbn [node_def]. rewrite Hname. destruct a; reflexivity.
  - unfold cond_tuple, is_named. cbn [node_def]. rewrite Hname. destruct a; reflexivity.
Qed.

Lemma kids_skip : forall acts kids, Forall2 (canon_cmd fsep) (map (acmd qin) acts) kids ->
  (forall k, flat_map (walk (S k)) kids = kids) /\ Forall skipped kids.
Proof.
  induction acts as [|a r IH]; intros kids H; inversion H as [|c n cs ns Hc Hr]; subst; [split; [reflexivity|constructor]|].
  destruct (act_skip a n Hc) as (Hw & Hn & Hct). destruct (IH ns Hr) as (E & F).
  split; [intro k; cbn [flat_map]; rewrite Hw, E; reflexivity|constructor; [split; assumption|exact F]].
Qed.

(* C19, conditions and match type: what get_filter_conditions / get_filter_matchtype return for the filter
   __create_filter builds is what was supplied *)
Theorem read_filter : forall loaded conds acts anyof reqs fuel,
  conds <> [] -> Forall rcond_ok conds -> Forall act_ok acts -> Forall act_plain acts -> 4 <= fuel ->
  exists n, create_filter qin qlist gen_tables loaded (map ctuple conds) (map atuple acts) (mt_name anyof) reqs =
            BOk (n, freqs conds acts reqs) /\
            get_conditions strip has_comma tolist is_bracket is_digits render fuel n = ROk (map expected conds) /\
            get_matchtype fuel n = Some (mt_name anyof).
Proof.
  intros loaded conds acts anyof reqs fuel Hne Hc Ha Hp Hfuel. exists (filter_node qin (cnode qin qlist) conds acts anyof).
  split; [apply (create_filter_node qin qlist qin_eq); [exact Hne|eapply Forall_impl; [|exact Hc]; exact rcond_buildable|exact Hp]|].
  destruct (kids_skip acts (map (anode qin) acts)) as (Ek & Fk);
    [apply Forall2_map; eapply Forall_impl; [|exact Ha]; exact (canon_anode qin qin_eq)|].
  destruct (readers_on_filter anyof (map (gnode (cnode qin qlist)) conds) (map expected conds) (map (anode qin) acts) fuel) as (Gc & Gm & _);
    [apply Forall2_map; eapply Forall_impl; [|exact Hc]; exact cnode_reads|exact Ek|exact Hfuel|].
  split; [apply Gc, Fk|exact Gm].
Qed.

Definition ract_ok (a : dact) : Prop :=
  match a with
  | AFileinto _ _ None folder => rd folder
  | ARedirect _ addr => rd addr
  | AReject reason => rd reason
  | ADiscard | AStop => True
  | AVacation None None None None None _ reason => rd reason
  | _ => False
  end.

Definition aexpected (a : dact) : rtuple := map fv_rv (atuple a).

Lemma anode_read : forall a, ract_ok a ->
  is_action (anode qin a) = true /\ action_tuple strip has_comma tolist (anode qin a) = ROk (aexpected a) /\
  (forall k, walk (S k) (anode qin a) = [anode qin a]).
Proof.
  intros a Hok.
  destruct a as [copy create flags folder|copy addr|reason| | |subject period from addresses handle mime reason];
    cbn [ract_ok] in Hok.
  - destruct flags; [contradiction|]. rfacts. destruct copy, create; (split; [reflexivity|split; [run_read|intro k; reflexivity]]).
  - rfacts. destruct copy; (split; [reflexivity|split; [run_read|intro k; reflexivity]]).
  - rfacts. split; [reflexivity|split; [run_read|intro k; reflexivity]].
  - split; [reflexivity|split; [run_read|intro k; reflexivity]].
  - split; [reflexivity|split; [run_read|intro k; reflexivity]].
  - destruct subject, period, from, addresses, handle; try contradiction. rfacts.
    destruct mime; (split; [reflexivity|split; [run_read|intro k; reflexivity]]).
Qed.

Lemma anodes_read : forall acts, Forall ract_ok acts ->
  (forall k, flat_map (walk (S k)) (map (anode qin) acts) = map (anode qin) acts) /\
  actions (map (anode qin) acts) = ROk (map aexpected acts).
Proof.
  induction 1 as [|a r Ha _ (Hw & Hr)]; [split; reflexivity|]. destruct (anode_read a Ha) as (Hi & Ht & Hk). cbn [map]. split.
  - intro k. cbn [flat_map]. rewrite Hk, Hw. reflexivity.
  - cbn [actions_of]. rewrite Hi, Ht. cbn [rbind]. rewrite Hr. reflexivity.
Qed.

(* C19, actions: get_filter_actions returns the actions that were supplied *)
Theorem read_filter_actions : forall loaded conds acts anyof reqs fuel,
  conds <> [] -> Forall rcond_ok conds -> Forall ract_ok acts -> Forall act_plain acts -> 4 <= fuel ->
  exists n, create_filter qin qlist gen_tables loaded (map ctuple conds) (map atuple acts) (mt_name anyof) reqs =
            BOk (n, freqs conds acts reqs) /\
            get_actions strip has_comma tolist fuel n = ROk (map aexpected acts).
Proof.
  intros loaded conds acts anyof reqs fuel Hne Hc Ha Hp Hfuel. exists (filter_node qin (cnode qin qlist) conds acts anyof).
  split; [apply (create_filter_node qin qlist qin_eq); [exact Hne|eapply Forall_impl; [|exact Hc]; exact rcond_buildable|exact Hp]|].
  destruct (anodes_read acts Ha) as (Hw & Hr).
  destruct (readers_on_filter anyof (map (gnode (cnode qin qlist)) conds) (map expected conds) (map (anode qin) acts) fuel) as (_ & _ & Ga);
    [apply Forall2_map; eapply Forall_impl; [|exact Hc]; exact cnode_reads|exact Hw|exact Hfuel|].
  rewrite <- Hr. exact Ga.
Qed.

End ReadBack.

Lemma std_Hstrip : forall s, rd s -> strip_dq (quote_if_necessary s) = s.
Proof. intros s [Hv Hp]. rewrite Hv. apply strip_dq_quote_plain. exact Hp. Qed.
Lemma std_Hcomma : forall s, rd s -> std_has_comma (quote_if_necessary s) = false.
Proof. intros s [Hv Hp]. rewrite Hv. apply contains_quote_plain. exact Hp. Qed.
Lemma std_Hbr_s : forall s, rd s -> std_is_bracket (quote_if_necessary s) = false.
Proof. intros s [Hv _]. rewrite Hv. reflexivity. Qed.
Lemma std_Hbr_l : forall l, std_is_bracket (quote_list l) = true.
Proof. reflexivity. Qed.
Lemma std_Hlist : forall l, lrd l -> std_tolist true (quote_list l) = l.
Proof. intros l [Hne Hp]. apply to_list_quote_list; assumption. Qed.

(* C19: conditions (negated forms included) and match type read back exactly as supplied *)
Theorem factory_read_filter : forall loaded conds acts anyof reqs fuel,
  conds <> [] -> Forall rcond_ok conds -> Forall act_ok acts -> Forall act_plain acts -> 4 <= fuel ->
  exists n, create_filter quote_if_necessary quote_list gen_tables loaded (map ctuple conds) (map atuple acts) (mt_name anyof) reqs =
            BOk (n, freqs conds acts reqs) /\
            std_get_conditions fuel n = ROk (map (fun d => map fv_rv (ctuple d)) conds) /\
            get_matchtype fuel n = Some (mt_name anyof).
Proof.
  intros loaded conds acts anyof reqs fuel Hne Hc Ha Hp Hf.
  destruct (read_filter quote_if_necessary quote_list strip_dq std_has_comma std_tolist std_is_bracket all_digits render_list
              std_Hstrip std_Hcomma std_Hbr_s std_Hbr_l std_Hlist (fun n H => H) std_qin_eq
              loaded conds acts anyof reqs fuel Hne Hc Ha Hp Hf) as (n & Hb & Hg & Hm).
  exists n. split; [exact Hb|]. split; [|exact Hm].
  unfold std_get_conditions. rewrite Hg. f_equal. apply map_ext. intro d. apply expected_is_supplied.
Qed.

(* C19: actions written with positional strings and value-less tags read back exactly as supplied *)
Theorem factory_read_actions : forall loaded conds acts anyof reqs fuel,
  conds <> [] -> Forall rcond_ok conds -> Forall ract_ok acts -> Forall act_plain acts -> 4 <= fuel ->
  exists n, create_filter quote_if_necessary quote_list gen_tables loaded (map ctuple conds) (map atuple acts) (mt_name anyof) reqs =
            BOk (n, freqs conds acts reqs) /\
            std_get_actions fuel n = ROk (map (fun a => map fv_rv (atuple a)) acts).
Proof.
  exact (read_filter_actions quote_if_necessary quote_list strip_dq std_has_comma std_tolist std_is_bracket all_digits render_list
           std_Hstrip std_Hcomma std_Hbr_s std_Hbr_l std_Hlist (fun n H => H) std_qin_eq).
Qed.

Print Assumptions factory_read_filter.
Print Assumptions factory_read_actions.

Definition ex_rconds : list dcond :=
  [DHeader true MContains (HStr (bs "Subject")) (HStr (bs "two words [x]"));
   DExists true [bs "X-A"; bs "X-B"];
   DSize true false (bs "2048");
   DEnvelope true MIs [bs "from"] [bs "a@b"; bs "c d"];
   DBody false false MMatches [bs "x y"];
   DCurrentdate true (bs "+0100") MIs (bs "date") [bs "2024-01-01"];
   DCurrentdateValue (bs "+0100") RLt (bs "date") [bs "2024"]].
Definition ex_racts : list dact :=
  [AFileinto true false None (bs "INBOX.caf" ++ [195%N; 169%N]); ARedirect false (bs "x@y"); AStop].

Ltac rdok := split; [apply vokb_ok; reflexivity|reflexivity].
Ltac lrdok := split; [discriminate|repeat (apply Forall_cons || apply Forall_nil); reflexivity].

Example ex_r_ok : Forall rcond_ok ex_rconds /\ Forall ract_ok ex_racts /\ Forall act_ok ex_racts /\ Forall act_plain ex_racts.
Proof.
  split; [|split; [|split]].
  - unfold ex_rconds. repeat (apply Forall_cons || apply Forall_nil); cbn [rcond_ok hdr_ok].
    + split; [reflexivity|split; rdok].
    + lrdok.
    + reflexivity.
    + split; lrdok.
    + lrdok.
    + split; [rdok|split; [rdok|lrdok]].
    + split; [rdok|split; [rdok|lrdok]].
  - unfold ex_racts. repeat (apply Forall_cons || apply Forall_nil); cbn [ract_ok]; try exact I; rdok.
  - unfold ex_racts. repeat (apply Forall_cons || apply Forall_nil); cbn [act_ok]; try exact I; try (split; [exact I|]);
      (split; [apply vokb_ok; reflexivity|reflexivity]).
  - unfold ex_racts, act_plain. repeat (apply Forall_cons || apply Forall_nil); cbn; repeat (apply Forall_cons || apply Forall_nil); reflexivity.
Qed.

(* the same definition through the executable models: added, disabled, read back with getfilter *)
Example ex_read_pipeline :
  match b_addfilter gen_tables [] (bs "f") (map ctuple ex_rconds) (map atuple ex_racts) (bs "allof") b_empty with
  | BOk (RNone, st) =>
      match b_getfilter gen_tables [] (bs "f") (snd (b_step (FDisable (bs "f")) st)) with
      | Some (BOk flt) =>
          std_get_conditions 8 flt = ROk (map (fun d => map fv_rv (ctuple d)) ex_rconds) /\
          std_get_actions 8 flt = ROk (map (fun a => map fv_rv (atuple a)) ex_racts) /\
          get_matchtype 8 flt = Some (bs "allof")
      | _ => False
      end
  | _ => False
  end.
Proof. vm_compute. repeat split. Qed.
