(* OpsFacts.v — property C12: the editing operations of FiltersSet (factory/Ops.v) refine an
   ordered list of uniquely named entries.

   The abstraction [abs] is inverted by [conc]: a concrete set represents the reference list sp
   exactly when it is [map conc sp]; every operation maps representable sets to representable
   sets and commutes with the reference operation, with the same return value.  Then the
   reference list itself is shown to behave as the property says (unique names, positions,
   shift by one, unknown names change nothing). *)
From Coq Require Import List NArith Bool Arith Lia Permutation.
From SV Require Import Bytes BytesFacts Ops.
Import ListNotations.
Local Open Scope nat_scope.

Lemma beq_sym : forall a b, beq a b = beq b a.
Proof. exact BytesFacts.beq_sym. Qed.

Definition conc (e : entry) : filter :=
  mkF (e_name e) (if e_enabled e then Plain (e_id e) else IfFalse [Plain (e_id e)]) (e_enabled e) (e_desc e).

Lemma abs_filter_conc : forall e, abs_filter (conc e) = Some e.
Proof. intros [n i [|] d]; reflexivity. Qed.

Lemma abs_filter_inv : forall f e, abs_filter f = Some e -> f = conc e.
Proof.
  intros [n c en d] e. unfold abs_filter. cbn.
  destruct c as [i|[|[i|l] [|x r]]]; destruct en; try discriminate; intro H; inversion H; reflexivity.
Qed.

Lemma abs_map_conc : forall sp, abs (map conc sp) = Some sp.
Proof.
  induction sp as [|e t IH]; cbn [map abs]; auto. rewrite abs_filter_conc, IH. reflexivity.
Qed.

Lemma abs_inv : forall s sp, abs s = Some sp -> s = map conc sp.
Proof.
  induction s as [|f t IH]; intros sp H; cbn [abs] in H.
  - inversion H. reflexivity.
  - destruct (abs_filter f) as [e|] eqn:Ef; try discriminate.
    destruct (abs t) as [r|] eqn:Et; try discriminate.
    inversion H; subst. cbn [map]. rewrite (abs_filter_inv _ _ Ef), (IH r eq_refl). reflexivity.
Qed.

Theorem abs_iff : forall s sp, abs s = Some sp <-> s = map conc sp.
Proof. intros s sp. split; [apply abs_inv | intros ->; apply abs_map_conc]. Qed.

Lemma exists_conc : forall n sp, exists_name n (map conc sp) = s_exists n sp.
Proof. induction sp as [|e t IH]; cbn; auto. rewrite IH. reflexivity. Qed.

Lemma find_conc : forall n sp, find_first n (map conc sp) = option_map conc (s_find n sp).
Proof.
  induction sp as [|e t IH]; cbn; auto. destruct (beq (e_name e) n); auto.
Qed.

Lemma s_find_exists : forall n sp, s_exists n sp = match s_find n sp with Some _ => true | None => false end.
Proof. induction sp as [|e t IH]; cbn; auto. destruct (beq (e_name e) n); auto. Qed.

Lemma s_find_name : forall n sp e, s_find n sp = Some e -> e_name e = n.
Proof.
  induction sp as [|x t IH]; cbn; intros e H; try discriminate.
  destruct (beq (e_name x) n) eqn:E; [inversion H; subst; apply beq_eq; exact E | auto].
Qed.

Lemma s_index_exists : forall n sp, s_exists n sp = match s_index n sp with Some _ => true | None => false end.
Proof.
  induction sp as [|e t IH]; cbn; auto. destruct (beq (e_name e) n); auto.
  cbn. rewrite IH. destruct (s_index n t); reflexivity.
Qed.

Lemma update_conc : forall n g g' sp,
  (forall e, s_find n sp = Some e -> g (conc e) = conc (g' e)) ->
  update_first n g (map conc sp) =
  if s_exists n sp then Some (map conc (s_update n g' sp)) else None.
Proof.
  intros n g g' sp. induction sp as [|e t IH]; intro Hg; cbn; auto.
  cbn in Hg. destruct (beq (e_name e) n) eqn:E; cbn.
  - rewrite (Hg e eq_refl). reflexivity.
  - rewrite (IH Hg). destruct (s_exists n t); reflexivity.
Qed.

Lemma update_twice : forall a b g h s s1,
  update_first a g s = Some s1 ->
  (forall f, f_name (g f) = b) ->
  (b = a \/ exists_name b s = false) ->
  update_first b h s1 = update_first a (fun f => h (g f)) s.
Proof.
  induction s as [|f t IH]; cbn; intros s1 H Hn Hb; try discriminate.
  destruct (beq (f_name f) a) eqn:E.
  - inversion H; subst. cbn. rewrite Hn, beq_refl. reflexivity.
  - destruct (update_first a g t) as [t'|] eqn:Et; try discriminate. inversion H; subst. cbn.
    assert (Hfb : beq (f_name f) b = false).
    { destruct Hb as [->|Hb]; auto. cbn in Hb. apply orb_false_iff in Hb. apply Hb. }
    rewrite Hfb. rewrite (IH t' eq_refl Hn).
    + reflexivity.
    + destruct Hb as [->|Hb]; auto. right. cbn in Hb. apply orb_false_iff in Hb. apply Hb.
Qed.

Lemma remove_conc : forall n sp,
  remove_first n (map conc sp) = if s_exists n sp then Some (map conc (s_remove n sp)) else None.
Proof.
  induction sp as [|e t IH]; cbn; auto. destruct (beq (e_name e) n); cbn; auto.
  rewrite IH. destruct (s_exists n t); reflexivity.
Qed.

Lemma move_up_aux_conc : forall n sp p,
  move_up_aux n (conc p) (map conc sp) =
  match s_index n sp with
  | Some _ => Some (map conc (s_move_up_aux n p sp))
  | None => None
  end.
Proof.
  intros n. induction sp as [|e t IH]; intro p; cbn; auto.
  destruct (beq (e_name e) n); cbn; auto.
  rewrite IH. destruct (s_index n t); reflexivity.
Qed.

Lemma move_up_conc : forall n sp,
  move_up n (map conc sp) =
  match s_index n sp with
  | Some (S _) => Some (map conc (s_move_up n sp))
  | _ => None
  end.
Proof.
  intros n [|e t]; cbn; auto. destruct (beq (e_name e) n); cbn; auto.
  rewrite move_up_aux_conc. destruct (s_index n t); reflexivity.
Qed.

Lemma move_down_conc : forall n sp,
  move_down n (map conc sp) =
  match s_index n sp with
  | Some k => if Nat.eqb (S k) (length sp) then None else Some (map conc (s_move_down n sp))
  | None => None
  end.
Proof.
  induction sp as [|e t IH]; cbn [map move_down s_index s_move_down length]; auto.
  cbn [conc f_name]. destruct (beq (e_name e) n) eqn:E.
  - destruct t as [|g t']; cbn; auto.
  - rewrite IH. destruct (s_index n t) as [k|]; auto.
    change (Nat.eqb (S (S k)) (S (length t))) with (Nat.eqb (S k) (length t)).
    destruct (Nat.eqb (S k) (length t)); reflexivity.
Qed.

Lemma disable_conc : forall n sp,
  op_disable n (map conc sp) =
  if s_exists n sp then (RBool true, map conc (s_update n (fun e => mkE (e_name e) (e_id e) false (e_desc e)) sp))
  else (RBool false, map conc sp).
Proof.
  intros n sp. unfold op_disable.
  rewrite (update_conc n disable_one (fun e => mkE (e_name e) (e_id e) false (e_desc e))).
  - destruct (s_exists n sp); reflexivity.
  - intros [m i [|] d] _; reflexivity.
Qed.

Lemma update_first_some : forall n g s,
  exists_name n s = true -> exists s1, update_first n g s = Some s1.
Proof.
  induction s as [|f t IH]; cbn; intro H; try discriminate.
  destruct (beq (f_name f) n); [eauto|]. cbn in H. destruct (IH H) as (t' & ->). eauto.
Qed.

(* update / replace share their shape: rename to b, new plain content c, description by dsel *)
Lemma replace_body_conc : forall a b c (dsel : option bytes -> option bytes) sp e0,
  s_find a sp = Some e0 ->
  (b = a \/ s_exists b sp = false) ->
  (match update_first a (fun f => mkF b (Plain c) (f_enabled f) (dsel (f_desc f))) (map conc sp) with
   | None => (RBool false, map conc sp)
   | Some s1 => if negb (f_enabled (conc e0)) then op_disable b s1 else (RBool true, s1)
   end)
  = (RBool true, map conc (s_update a (fun e => mkE b c (e_enabled e) (dsel (e_desc e))) sp)).
Proof.
  intros a b c dsel sp e0 Hf Hb.
  set (g := fun f => mkF b (Plain c) (f_enabled f) (dsel (f_desc f))).
  set (g' := fun e => mkE b c (e_enabled e) (dsel (e_desc e))).
  assert (Hex : s_exists a sp = true) by (rewrite s_find_exists, Hf; reflexivity).
  cbn [conc f_enabled]. destruct (e_enabled e0) eqn:Een; cbn [negb].
  - rewrite (update_conc a g g').
    + rewrite Hex. reflexivity.
    + intros e He. rewrite Hf in He. inversion He; subst e. unfold g, g'. cbn. rewrite Een. reflexivity.
  - (* disabled: the plain content is stored, then wrapped again by disablefilter under the new name *)
    destruct (update_first_some a g (map conc sp)) as (s1 & Eu); [rewrite exists_conc; exact Hex|].
    rewrite Eu. unfold op_disable.
    rewrite (update_twice a b g disable_one _ s1 Eu).
    + rewrite (update_conc a (fun f => disable_one (g f)) g').
      * rewrite Hex. reflexivity.
      * intros e He. rewrite Hf in He. inversion He; subst e. unfold g, g'. cbn. rewrite Een. reflexivity.
    + intro f. reflexivity.
    + destruct Hb as [->|Hb]; auto. right. rewrite exists_conc. exact Hb.
Qed.

Lemma rename_guard : forall a b sp, negb (beq b a) && s_exists b sp = false -> b = a \/ s_exists b sp = false.
Proof.
  intros a b sp H. apply andb_false_iff in H as [H|H]; [left|right; exact H].
  apply negb_false_iff, beq_eq in H. exact H.
Qed.

Lemma replace_refines : forall sp a c nn d,
  step (map conc sp) (FReplace a c nn d) =
  (fst (spec_step sp (FReplace a c nn d)), map conc (snd (spec_step sp (FReplace a c nn d)))).
Proof.
  intros sp a c nn d. cbn [step spec_step]. unfold op_replace. rewrite exists_conc, find_conc, (s_find_exists a sp).
  set (b := match nn with Some n => n | None => a end).
  destruct (s_find a sp) as [e0|] eqn:Ef; cbn [option_map negb]; auto.
  destruct (negb (beq b a) && s_exists b sp) eqn:Eb; cbn [fst snd]; auto.
  apply (replace_body_conc a b c (fun x => match d with Some y => Some y | None => x end) sp e0 Ef), rename_guard, Eb.
Qed.

(* one step: same return value, and the result represents the reference result *)
Theorem step_refines : forall sp o,
  step (map conc sp) o = (fst (spec_step sp o), map conc (snd (spec_step sp o))).
Proof.
  intros sp o. destruct o as [n c|a b c|a c nn d|n|n|n|n up]; cbn [step spec_step].
  - unfold op_add. rewrite exists_conc. destruct (s_exists n sp); cbn [fst snd]; auto.
    rewrite map_app. reflexivity.
  - (* update is replace without a description *)
    apply (replace_refines sp a c (Some b) None).
  - apply (replace_refines sp a c nn d).
  - unfold op_remove. rewrite remove_conc. destruct (s_exists n sp); reflexivity.
  - unfold op_enable. rewrite find_conc. destruct (s_find n sp) as [e0|] eqn:Es; cbn [option_map]; auto.
    destruct (e_enabled e0) eqn:Een; cbn [conc f_content]; rewrite Een; auto.
    rewrite (update_conc n _ (fun e => mkE (e_name e) (e_id e) true (e_desc e))).
    + assert (Hex : s_exists n sp = true) by (rewrite s_find_exists, Es; reflexivity).
      rewrite Hex. reflexivity.
    + intros e He. rewrite Es in He. inversion He; subst e. reflexivity.
  - rewrite disable_conc. destruct (s_exists n sp); reflexivity.
  - unfold op_move. destruct up.
    + rewrite move_up_conc. destruct (s_index n sp) as [[|k]|]; reflexivity.
    + rewrite move_down_conc. destruct (s_index n sp) as [k|]; auto.
      destruct (Nat.eqb (S k) (length sp)); reflexivity.
Qed.

Corollary step_refines_abs : forall s sp o,
  abs s = Some sp ->
  fst (step s o) = fst (spec_step sp o) /\ abs (snd (step s o)) = Some (snd (spec_step sp o)).
Proof.
  intros s sp o H. apply abs_inv in H. subst s. rewrite step_refines. cbn [fst snd].
  split; [reflexivity | apply abs_map_conc].
Qed.

Fixpoint run_trace (s : fset) (ops : list fop) : list ret * fset :=
  match ops with
  | [] => ([], s)
  | o :: t => let '(r, s1) := step s o in let '(rs, s2) := run_trace s1 t in (r :: rs, s2)
  end.
Fixpoint spec_trace (sp : spec) (ops : list fop) : list ret * spec :=
  match ops with
  | [] => ([], sp)
  | o :: t => let '(r, s1) := spec_step sp o in let '(rs, s2) := spec_trace s1 t in (r :: rs, s2)
  end.

Theorem trace_refines : forall ops sp,
  run_trace (map conc sp) ops = (fst (spec_trace sp ops), map conc (snd (spec_trace sp ops))).
Proof.
  induction ops as [|o t IH]; intro sp; cbn [run_trace spec_trace]; auto.
  rewrite step_refines. destruct (spec_step sp o) as [r sp1]. cbn [fst snd].
  rewrite IH. destruct (spec_trace sp1 t) as [rs sp2]. reflexivity.
Qed.

Corollary history_refines : forall ops,
  fst (run_trace [] ops) = fst (spec_trace [] ops) /\
  abs (snd (run_trace [] ops)) = Some (snd (spec_trace [] ops)).
Proof.
  intro ops. pose proof (trace_refines ops []) as H. cbn [map] in H. rewrite H. cbn [fst snd].
  split; [reflexivity | apply abs_map_conc].
Qed.

(* enabled flag, is_filter_disabled and the if-false wrapper agree; getfilter returns the filter's own content *)
Theorem observers_agree : forall sp n,
  op_is_disabled n (map conc sp) =
    RBool (match s_find n sp with Some e => negb (e_enabled e) | None => true end) /\
  op_get n (map conc sp) =
    match s_find n sp with Some e => RContent (Plain (e_id e)) | None => RNone end /\
  Forall (fun f => f_enabled f = negb (isdisabled (f_content f))) (map conc sp).
Proof.
  intros sp n. unfold op_is_disabled, op_get. rewrite find_conc.
  split; [|split].
  - destruct (s_find n sp) as [[m i [|] d]|]; reflexivity.
  - destruct (s_find n sp) as [[m i [|] d]|]; reflexivity.
  - apply Forall_forall. intros f Hf. apply in_map_iff in Hf. destruct Hf as ([m i [|] d] & <- & _); reflexivity.
Qed.

Definition names (sp : spec) : list bytes := map e_name sp.

Lemma s_exists_In : forall n sp, s_exists n sp = true <-> In n (names sp).
Proof.
  induction sp as [|e t IH]; cbn; [split; [discriminate|tauto]|].
  rewrite orb_true_iff, IH, beq_eq. tauto.
Qed.

Lemma In_s_update : forall n g sp x, In x (s_update n g sp) -> In x sp \/ exists e, In e sp /\ x = g e.
Proof.
  induction sp as [|e t IH]; cbn; auto. intro x. destruct (beq (e_name e) n); cbn.
  - intros [<-|H]; eauto.
  - intros [<-|H]; auto. destruct (IH x H) as [H1|(e' & H1 & ->)]; eauto.
Qed.

Lemma Forall_s_update : forall (P : entry -> Prop) n g sp,
  Forall P sp -> (forall e, P e -> P (g e)) -> Forall P (s_update n g sp).
Proof.
  intros P n g sp H Hg. rewrite Forall_forall in *. intros x Hx.
  destruct (In_s_update n g sp x Hx) as [I|(e & I & ->)]; auto.
Qed.

Lemma s_remove_incl : forall n sp, incl (s_remove n sp) sp.
Proof.
  induction sp as [|e t IH]; cbn; [apply incl_refl|]. destruct (beq (e_name e) n); [apply incl_tl, incl_refl|].
  intros x [<-|H]; [left; reflexivity|right; apply IH, H].
Qed.

Lemma perm_move_up_aux : forall n p sp, Permutation (s_move_up_aux n p sp) (p :: sp).
Proof.
  intros n p sp. revert p. induction sp as [|e t IH]; intro p; cbn; auto.
  destruct (beq (e_name e) n); [apply perm_swap|apply perm_skip, IH].
Qed.

Lemma perm_move_up : forall n sp, Permutation (s_move_up n sp) sp.
Proof. intros n [|e t]; cbn; auto. destruct (beq (e_name e) n); auto. apply perm_move_up_aux. Qed.

Lemma perm_move_down : forall n sp, Permutation (s_move_down n sp) sp.
Proof.
  induction sp as [|e t IH]; cbn; auto. destruct (beq (e_name e) n); [|apply perm_skip, IH].
  destruct t; auto. apply perm_swap.
Qed.

Lemma names_update_same : forall n g sp,
  (forall e, e_name (g e) = e_name e) -> names (s_update n g sp) = names sp.
Proof.
  intros n g sp Hg. unfold names. induction sp as [|e t IH]; cbn; auto.
  destruct (beq (e_name e) n); cbn; [rewrite Hg|rewrite IH]; reflexivity.
Qed.

Lemma In_names_update : forall n b g sp x,
  (forall e, e_name (g e) = b) ->
  In x (names (s_update n g sp)) -> x = b \/ In x (names sp).
Proof.
  intros n b g sp x Hg H. apply in_map_iff in H as (y & <- & Hy).
  destruct (In_s_update n g sp y Hy) as [H|(e & _ & ->)]; [right; apply in_map, H|left; apply Hg].
Qed.

Lemma NoDup_update_rename : forall a b g sp,
  (forall e, e_name (g e) = b) ->
  NoDup (names sp) -> (b = a \/ ~ In b (names sp)) ->
  NoDup (names (s_update a g sp)).
Proof.
  intros a b g sp Hg. induction sp as [|e t IH]; cbn; intros Hnd Hb; auto.
  inversion Hnd as [|x l Hx Hl]; subst.
  destruct (beq (e_name e) a) eqn:E; cbn.
  - rewrite Hg. constructor; auto. destruct Hb as [->|Hb].
    + apply beq_eq in E. rewrite <- E. exact Hx.
    + intro H. apply Hb. right. exact H.
  - constructor.
    + intro H. apply (In_names_update a b g t _ Hg) in H. destruct H as [H|H]; auto.
      destruct Hb as [->|Hb].
      * apply beq_neq in E. congruence.
      * apply Hb. left. auto.
    + apply IH; auto. destruct Hb as [Hb|Hb]; [left; exact Hb|].
      right. intro H. apply Hb. right. exact H.
Qed.

Lemma NoDup_remove : forall n sp, NoDup (names sp) -> NoDup (names (s_remove n sp)).
Proof.
  induction sp as [|e t IH]; cbn; auto. intro H. inversion H; subst.
  destruct (beq (e_name e) n); cbn; auto. constructor; auto.
  intro Hin. apply in_map_iff in Hin as (y & Ey & Hy). apply s_remove_incl in Hy.
  match goal with X : ~ In _ _ |- _ => apply X end. rewrite <- Ey. apply in_map, Hy.
Qed.

Lemma NoDup_names_perm : forall sp sp', Permutation sp sp' -> NoDup (names sp') -> NoDup (names sp).
Proof.
  intros sp sp' P H. apply (Permutation_NoDup (l := names sp')); [|exact H].
  apply Permutation_sym, Permutation_map, P.
Qed.

Lemma replace_nodup : forall sp a c nn d, NoDup (names sp) -> NoDup (names (snd (spec_step sp (FReplace a c nn d)))).
Proof.
  intros sp a c nn d H. cbn [spec_step]. set (b := match nn with Some n => n | None => a end).
  destruct (negb (s_exists a sp)); cbn [snd]; auto.
  destruct (negb (beq b a) && s_exists b sp) eqn:Eb; cbn [snd]; auto.
  apply (NoDup_update_rename a b); auto.
  destruct (rename_guard a b sp Eb) as [E|E]; [left; exact E|right].
  intro Hin. apply s_exists_In in Hin. congruence.
Qed.

(* names stay unique under every operation *)
Theorem spec_step_nodup : forall sp o, NoDup (names sp) -> NoDup (names (snd (spec_step sp o))).
Proof.
  intros sp o H. destruct o as [n c|a b c|a c nn d|n|n|n|n up]; cbn [spec_step].
  - destruct (s_exists n sp) eqn:E; cbn [snd]; auto.
    apply (NoDup_names_perm _ (mkE n c true None :: sp)).
    + apply Permutation_sym, Permutation_cons_append.
    + constructor; auto. intro Hin. apply s_exists_In in Hin. cbn [e_name] in Hin. congruence.
  - apply (replace_nodup sp a c (Some b) None H).
  - apply (replace_nodup sp a c nn d H).
  - destruct (s_exists n sp); cbn [snd]; auto. apply NoDup_remove. exact H.
  - destruct (s_find n sp) as [e|]; cbn [snd]; auto. destruct (e_enabled e); cbn [snd]; auto.
    rewrite names_update_same; auto.
  - destruct (s_exists n sp); cbn [snd]; auto. rewrite names_update_same; auto.
  - destruct (s_index n sp) as [k|]; cbn [snd]; auto. destruct up.
    + destruct (Nat.eqb k 0); cbn [snd]; auto. apply (NoDup_names_perm _ sp (perm_move_up n sp) H).
    + destruct (Nat.eqb (S k) (length sp)); cbn [snd]; auto. apply (NoDup_names_perm _ sp (perm_move_down n sp) H).
Qed.

Corollary history_nodup : forall ops, NoDup (names (snd (spec_trace [] ops))).
Proof.
  intro ops. assert (G : forall sp, NoDup (names sp) -> NoDup (names (snd (spec_trace sp ops)))).
  { induction ops as [|o t IH]; intros sp H; cbn [spec_trace]; auto.
    pose proof (spec_step_nodup sp o H) as H1. destruct (spec_step sp o) as [r sp1]. cbn [snd] in H1.
    specialize (IH sp1 H1). destruct (spec_trace sp1 t) as [rs sp2]. exact IH. }
  apply G. constructor.
Qed.

(* update/replace/enable/disable rewrite exactly one entry, in place *)
Theorem s_update_in_place : forall n g sp k e,
  s_index n sp = Some k -> s_find n sp = Some e ->
  s_update n g sp = firstn k sp ++ g e :: skipn (S k) sp /\ nth_error sp k = Some e.
Proof.
  induction sp as [|x t IH]; cbn; intros k e Hi Hf; try discriminate.
  destruct (beq (e_name x) n).
  - inversion Hi; inversion Hf; subst. cbn. auto.
  - destruct (s_index n t) as [k'|]; try discriminate. inversion Hi; subst.
    destruct (IH k' e eq_refl Hf) as (E & N). cbn. rewrite E. auto.
Qed.

Lemma s_index_find : forall n sp k, s_index n sp = Some k -> exists e, s_find n sp = Some e /\ e_name e = n.
Proof.
  induction sp as [|x t IH]; cbn; intros k H; try discriminate.
  destruct (beq (e_name x) n) eqn:E.
  - exists x. split; auto. apply beq_eq. exact E.
  - destruct (s_index n t) as [k'|]; try discriminate. eauto.
Qed.

(* move up = swap with the predecessor; move down = swap with the successor; nothing else moves *)
Theorem s_move_up_swap : forall n sp k,
  s_index n sp = Some (S k) ->
  exists l1 x y l2, sp = l1 ++ x :: y :: l2 /\ length l1 = k /\ e_name y = n /\
                    s_move_up n sp = l1 ++ y :: x :: l2.
Proof.
  intros n sp. destruct sp as [|p t]; cbn; intros k H; try discriminate.
  destruct (beq (e_name p) n); try discriminate.
  destruct (s_index n t) as [k'|] eqn:Ei; try discriminate. inversion H; subst k'. clear H.
  revert p k Ei. induction t as [|e t IH]; intros p k Ei; cbn in Ei; try discriminate.
  cbn [s_move_up_aux]. destruct (beq (e_name e) n) eqn:E.
  - inversion Ei; subst. exists [], p, e, t. cbn. repeat split; auto. apply beq_eq. exact E.
  - destruct (s_index n t) as [k'|] eqn:Ei'; try discriminate. inversion Ei; subst.
    destruct (IH e k' eq_refl) as (l1 & x & y & l2 & E1 & E2 & E3 & E4).
    exists (p :: l1), x, y, l2. cbn. rewrite E1, E4, E2. auto.
Qed.

Theorem s_move_down_swap : forall n sp k,
  s_index n sp = Some k -> S k <> length sp ->
  exists l1 x y l2, sp = l1 ++ x :: y :: l2 /\ length l1 = k /\ e_name x = n /\
                    s_move_down n sp = l1 ++ y :: x :: l2.
Proof.
  induction sp as [|e t IH]; cbn; intros k Hi Hl; try discriminate.
  destruct (beq (e_name e) n) eqn:E.
  - inversion Hi; subst. destruct t as [|g t']; [cbn in Hl; congruence|].
    exists [], e, g, t'. cbn. repeat split; auto. apply beq_eq. exact E.
  - destruct (s_index n t) as [k'|] eqn:Ei; try discriminate. inversion Hi; subst.
    destruct (IH k' eq_refl) as (l1 & x & y & l2 & E1 & E2 & E3 & E4); [lia|].
    exists (e :: l1), x, y, l2. cbn. rewrite <- E1, E4, E2. auto.
Qed.

(* operations on unknown names return False and change nothing *)
Theorem unknown_name_noop : forall sp o n,
  s_exists n sp = false ->
  match o with
  | FUpdate a _ _ | FReplace a _ _ _ => a = n
  | FRemove m | FEnable m | FDisable m | FMove m _ => m = n
  | FAdd _ _ => False
  end ->
  spec_step sp o = (RBool false, sp).
Proof.
  intros sp o n H Ho. destruct o as [m c|a b c|a c nn d|m|m|m|m up]; cbn [spec_step]; try contradiction; subst.
  - rewrite H. reflexivity.
  - rewrite H. reflexivity.
  - rewrite H. reflexivity.
  - rewrite s_find_exists in H. destruct (s_find n sp); [discriminate|reflexivity].
  - rewrite H. reflexivity.
  - rewrite s_index_exists in H. destruct (s_index n sp); [discriminate|reflexivity].
Qed.

(* non-vacuity: a history that exercises collisions, a double disable and boundary moves *)
Example history_example :
  let a := [97%N] in let b := [98%N] in
  let ops := [FAdd a 1; FAdd b 2; FAdd a 3; FDisable a; FDisable a; FUpdate a a 4; FMove a true; FMove b true;
              FEnable a; FEnable a; FReplace b 5 (Some a) None; FRemove b; FRemove b] in
  fst (run_trace [] ops) =
    [RNone; RNone; RAlreadyExists; RBool true; RBool true; RBool true; RBool false; RBool true;
     RBool true; RBool false; RAlreadyExists; RBool true; RBool false]
  /\ abs (snd (run_trace [] ops)) = Some [mkE a 4 true None].
Proof. vm_compute. split; reflexivity. Qed.

Print Assumptions abs_iff.
Print Assumptions step_refines.
Print Assumptions trace_refines.
Print Assumptions history_refines.
Print Assumptions observers_agree.
Print Assumptions spec_step_nodup.
Print Assumptions history_nodup.
Print Assumptions s_update_in_place.
Print Assumptions s_move_up_swap.
Print Assumptions s_move_down_swap.
Print Assumptions unknown_name_noop.
