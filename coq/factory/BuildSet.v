(* BuildSet.v — whole filters and whole filter sets built by the factory (C06, C11).

   The tree __create_filter builds for a list of documented conditions and actions is written out (filter_node over
   the trees of BuildFacts.v); it is `if anyof/allof (tests) { actions }` in canonical form, that command is legal
   wherever its extensions are loaded, and the requirements recorded are Machine.load_exts of those extensions.
   A set of such filters, some disabled, written by FiltersSet.tosieve with the require line and the marker comments,
   is accepted by the parser and parses to the filters in order with their comments. *)
From Coq Require Import List NArith Bool Arith Lia.
From Coq Require String.
Import String.StringSyntax.
From SV Require Import lib.Bytes sieve.Lexer sieve.Tables sieve.ArgCheck sieve.ArgSpec sieve.Machine sieve.Printer
  sieve.ArgCheckFacts sieve.PositionFacts sieve.TotalFacts sieve.LexerFacts sieve.CompleteFacts sieve.CompleteTree
  sieve.RenderFacts sieve.PrintTree sieve.GateFacts sieve.CanonFacts gen.GenTables lib.BytesFacts factory.Text factory.TextFacts
  factory.Ops factory.Build factory.BuildFacts.
Import ListNotations.
Local Close Scope N_scope.
Local Open Scope string_scope.

Section Filt.
Variable qin : bytes -> bytes.
Variable qlist : list bytes -> bytes.
Hypothesis qin_eq : forall s, vok s -> qin s = quote s.
Hypothesis qlist_eq : forall l, qlist l = 91%N :: join [44%N] (map quote l) ++ [93%N].

Definition gtest_of (d : dcond) : gtest := if cneg d then GNot (bs "not") (ctest qin d) else ctest qin d.
Definition mt_name (anyof : bool) : bytes := if anyof then bs "anyof" else bs "allof".

Definition fcmd (conds : list dcond) (acts : list dact) (anyof : bool) : gcmd :=
  GCtl (bs "if") (GList (mt_name anyof) (map gtest_of conds)) (map (acmd qin) acts).

Definition creqs_all (conds : list dcond) (reqs : list bytes) : list bytes := fold_left (fun r d => creqs d r) conds reqs.
Definition areqs_all (acts : list dact) (reqs : list bytes) : list bytes := fold_left (fun r a => areqs a r) acts reqs.
Definition freqs (conds : list dcond) (acts : list dact) (reqs : list bytes) : list bytes :=
  areqs_all acts (creqs_all conds reqs).

Definition dummy_def : cmddef := mkCmd [] CTest [] false false false None None None HNone RNotImplemented.
Definition def_of (name : bytes) : cmddef :=
  match lookup_cmd gen_tables name with Some d => d | None => dummy_def end.

Lemma def_of_tdef : forall name, def_of name = tdef name.
Proof. reflexivity. Qed.

(* the anyof/allof command while tests are added to it *)
Definition mt_frame (anyof : bool) (ns : list node) : frame :=
  mkFrame (tdef (mt_name anyof)) (match ns with [] => [] | _ => [(bs "tests", VTests ns)] end) [] [] 0 0 None AtTop.

Lemma mt_step : forall loaded anyof ns n,
  cna_do loaded (mt_frame anyof ns) TyTest (VTest n) true = BOk (mt_frame anyof (ns ++ [n])%list).
Proof. intros loaded [|] [|x r] n; vm_compute; reflexivity. Qed.

Definition not_node (n : node) : node := Node (tdef (bs "not")) [(bs "test", VTest n)] [] [] [].

Lemma wrap_not_eq : forall loaded f neg,
  wrap_not gen_tables loaded f neg = BOk (if neg then not_node (done f) else done f).
Proof. intros loaded f [|]; reflexivity. Qed.

(* the tree of one condition of a filter, over the tree [nd d] of its test *)
Definition gnode (nd : dcond -> node) (d : dcond) : node := if cneg d then not_node (nd d) else nd d.

Lemma build_tests_eq : forall loaded anyof conds ns0 reqs, Forall buildable conds ->
  build_tests qin qlist gen_tables loaded (mt_frame anyof ns0) (map ctuple conds) reqs =
  BOk (mt_frame anyof (ns0 ++ map (gnode (cnode qin qlist)) conds)%list, creqs_all conds reqs).
Proof.
  intros loaded anyof conds. induction conds as [|d r IH]; intros ns0 reqs H; [rewrite app_nil_r; reflexivity|].
  inversion H as [|d' r' Hd Hr]; subst. cbn [map build_tests].
  rewrite (build_frame qin qlist qin_eq d loaded reqs Hd). cbn [bbind]. rewrite wrap_not_eq. cbn [bbind].
  rewrite mt_step. cbn [bbind]. rewrite (IH _ _ Hr), <- app_assoc. reflexivity.
Qed.

Lemma build_actions_eq : forall loaded acts reqs, Forall act_plain acts ->
  build_actions qin gen_tables loaded (map atuple acts) reqs = BOk (map (anode qin) acts, areqs_all acts reqs).
Proof.
  intros loaded acts. induction acts as [|a r IH]; intros reqs H; [reflexivity|].
  inversion H as [|a' r' Ha Hr]; subst. cbn [map build_actions].
  rewrite (build_anode qin a loaded reqs Ha). cbn [bbind]. rewrite (IH _ Hr). reflexivity.
Qed.

Definition if_node (mtn : node) (kids : list node) : node :=
  Node (tdef (bs "if")) [(bs "test", VTest mtn)] [] kids [].
Definition mt_node (anyof : bool) (ns : list node) : node :=
  Node (tdef (mt_name anyof)) [(bs "tests", VTests ns)] [] [] [].
Definition filter_node (nd : dcond -> node) (conds : list dcond) (acts : list dact) (anyof : bool) : node :=
  if_node (mt_node anyof (map (gnode nd) conds)) (map (anode qin) acts).

Lemma create_filter_node : forall loaded conds acts anyof reqs,
  conds <> [] -> Forall buildable conds -> Forall act_plain acts ->
  create_filter qin qlist gen_tables loaded (map ctuple conds) (map atuple acts) (mt_name anyof) reqs =
  BOk (filter_node (cnode qin qlist) conds acts anyof, freqs conds acts reqs).
Proof.
  intros loaded conds acts anyof reqs Hne Hb Hp. unfold create_filter.
  change (gci gen_tables loaded k_if true) with (BOk (new_frame (tdef (bs "if")) AtTop)).
  replace (gci gen_tables loaded (mt_name anyof) true) with (BOk (mt_frame anyof [])) by (destruct anyof; reflexivity).
  cbn [bbind]. rewrite (build_tests_eq loaded anyof conds [] reqs Hb). cbn [bbind app].
  replace (done (mt_frame anyof (map (gnode (cnode qin qlist)) conds))) with (mt_node anyof (map (gnode (cnode qin qlist)) conds))
    by (destruct conds; [congruence|reflexivity]).
  set (mt := mt_node anyof _).
  (* the test is put into the `if` before the actions are built *)
  change (cna_do loaded (new_frame (tdef (bs "if")) AtTop) TyTest (VTest mt) true)
    with (BOk (mkFrame (tdef (bs "if")) [(bs "test", VTest mt)] [] [] 1 1 (hd_error (d_args (tdef (bs "if")))) AtTop)).
  cbn [bbind]. rewrite (build_actions_eq loaded acts _ Hp). reflexivity.
Qed.

Lemma Forall2_map : forall (A B C : Type) (P : B -> C -> Prop) (f : A -> B) (g : A -> C) l,
  Forall (fun x => P (f x) (g x)) l -> Forall2 P (map f l) (map g l).
Proof. induction 1; constructor; assumption. Qed.

Lemma canon_gnode : forall d, cond_ok d -> canon_test fsep (gtest_of d) (gnode (cnode qin qlist) d).
Proof.
  intros d H. pose proof (canon_cnode qin qlist qin_eq qlist_eq d H) as Hc. unfold gtest_of, gnode. destruct (cneg d); [|exact Hc].
  eapply ct_not'; [reflexivity|reflexivity|reflexivity|reflexivity|reflexivity|reflexivity|exact Hc].
Qed.

Lemma canon_filter_node : forall conds acts anyof, conds <> [] -> Forall cond_ok conds -> Forall act_ok acts ->
  canon_cmd fsep (fcmd conds acts anyof) (filter_node (cnode qin qlist) conds acts anyof).
Proof.
  intros conds acts anyof Hne Hc Ha. unfold fcmd, filter_node, if_node.
  eapply cc_ctl'; [reflexivity|reflexivity|reflexivity|reflexivity|reflexivity|reflexivity|reflexivity| |].
  - unfold mt_node. eapply ct_list'; [destruct anyof; reflexivity|destruct anyof; reflexivity|destruct anyof; reflexivity
                                     |destruct anyof; reflexivity|destruct anyof; reflexivity
                                     |destruct conds; [congruence|discriminate]|destruct anyof; reflexivity|].
    apply Forall2_map. eapply Forall_impl; [|exact Hc]. exact canon_gnode.
  - apply Forall2_map. eapply Forall_impl; [|exact Ha]. exact (canon_anode qin qin_eq).
Qed.

Definition fexts (conds : list dcond) (acts : list dact) : list bytes :=
  (flat_map cexts conds ++ flat_map aexts acts)%list.

Lemma has_exts_app : forall L a b, has_exts L (a ++ b)%list -> has_exts L a /\ has_exts L b.
Proof. intros L a b H. split; intros e He; apply H, in_or_app; [left|right]; exact He. Qed.

Lemma wf_not_node : forall L t n, wf_test gen_tables L t n -> wf_test gen_tables L (GNot (bs "not") t) (not_node n).
Proof.
  intros L t n H. pose (a := hd (mkArg [] [] false None None None None) (d_args (tdef (bs "not")))).
  change (not_node n) with (Node (tdef (bs "not")) [(a_name a, VTest n)] [] [] []).
  apply wf_not; [reflexivity|reflexivity|reflexivity|reflexivity|exact H].
Qed.

Lemma wf_gnodes : forall conds L, Forall cond_ok conds -> has_exts L (flat_map cexts conds) ->
  Forall2 (wf_test gen_tables L) (map gtest_of conds) (map (gnode (pnode qin)) conds).
Proof.
  induction conds as [|d r IH]; intros L H HL; [constructor|].
  inversion H as [|d' r' Hd Hr]; subst. cbn [flat_map] in HL. apply has_exts_app in HL as (H1 & H2).
  cbn [map]. constructor; [|apply (IH L Hr H2)].
  pose proof (wf_pnode qin qin_eq d L Hd H1) as W. unfold gtest_of, gnode. destruct (cneg d); [apply wf_not_node, W|exact W].
Qed.

Lemma wf_anodes : forall acts L prev, Forall act_ok acts -> has_exts L (flat_map aexts acts) ->
  wf_cmds gen_tables L prev (map (acmd qin) acts) (map (anode qin) acts) L.
Proof.
  induction acts as [|a r IH]; intros L prev H HL; [constructor|].
  inversion H as [|a' r' Ha Hr]; subst. cbn [flat_map] in HL. apply has_exts_app in HL as (H1 & H2).
  cbn [map]. eapply wf_cons; [apply (wf_anode qin qin_eq a L prev Ha H1)|apply (IH L _ Hr H2)].
Qed.

Lemma wf_filter_node : forall conds acts anyof L prev,
  conds <> [] -> Forall cond_ok conds -> Forall act_ok acts -> has_exts L (fexts conds acts) ->
  wf_cmd gen_tables L prev (fcmd conds acts anyof) (filter_node (pnode qin) conds acts anyof) L.
Proof.
  intros conds acts anyof L prev Hne Hc Ha HL. apply has_exts_app in HL as (H1 & H2).
  pose (dummy := mkArg [] [] false None None None None).
  pose (ia := hd dummy (d_args (tdef (bs "if")))). pose (ma := hd dummy (d_args (tdef (mt_name anyof)))).
  unfold fcmd, filter_node, if_node, mt_node. change (bs "test") with (a_name ia).
  replace (bs "tests") with (a_name ma) by (destruct anyof; reflexivity).
  apply wf_ctl; [reflexivity|reflexivity|reflexivity|reflexivity|reflexivity|reflexivity| |apply (wf_anodes acts L None Ha H2)].
  apply wf_list; [destruct anyof; reflexivity|destruct anyof; reflexivity|destruct anyof; reflexivity|destruct anyof; reflexivity
                 |destruct anyof; reflexivity|destruct conds; [congruence|discriminate]|apply (wf_gnodes conds L Hc H1)].
Qed.

(* FiltersSet.require is one step of what the parser
   does on `require [...]` (Machine.load_exts), so the requirements recorded for a filter are [load_exts] of the
   extensions it needs. *)

Lemma require_has : forall n reqs, mem (strip_dq n) (require n reqs) = true.
Proof. intros n reqs. apply (load_exts_loads [n] reqs n). left. reflexivity. Qed.

Lemma require_idem : forall n reqs, require n (require n reqs) = require n reqs.
Proof. intros n reqs. unfold require at 1. rewrite require_has. reflexivity. Qed.

Lemma load_exts_app : forall a b L, load_exts (a ++ b) L = load_exts b (load_exts a L).
Proof. induction a as [|x a IH]; intros b L; [reflexivity|]. cbn [app load_exts]. apply IH. Qed.

Lemma creqs_load : forall d reqs, creqs d reqs = load_exts (cexts d) reqs.
Proof. intros d reqs. destruct d; try reflexivity. cbn [creqs]. rewrite require_idem. reflexivity. Qed.

Lemma areqs_load : forall a reqs, areqs a reqs = load_exts (aexts a) reqs.
Proof.
  intros a reqs. destruct a as [copy create flags folder|copy addr|reason| | |subject period from addresses handle mime reason];
    try reflexivity.
  - destruct copy, create, flags; reflexivity.
  - destruct copy; reflexivity.
  - destruct period as [[[|] n]|]; reflexivity.
Qed.

Lemma freqs_load : forall conds acts reqs, freqs conds acts reqs = load_exts (fexts conds acts) reqs.
Proof.
  intros conds acts reqs. unfold freqs, fexts. rewrite load_exts_app.
  assert (C : forall reqs, creqs_all conds reqs = load_exts (flat_map cexts conds) reqs).
  { unfold creqs_all. induction conds as [|d r IH]; intro r0; [reflexivity|]. cbn [fold_left flat_map]. rewrite IH, creqs_load, load_exts_app. reflexivity. }
  rewrite C. generalize (load_exts (flat_map cexts conds) reqs). unfold areqs_all.
  induction acts as [|a r IH]; intro r0; [reflexivity|]. cbn [fold_left flat_map]. rewrite IH, areqs_load, load_exts_app. reflexivity.
Qed.

Theorem freqs_grows : forall conds acts reqs, sub reqs (freqs conds acts reqs).
Proof. intros conds acts reqs x H. rewrite freqs_load. apply load_exts_mem, H. Qed.

(* the names of the extensions: written without quotes, and printed as strings the lexer reads back *)
Definition known_exts : list bytes :=
  [bs "fileinto"; bs "reject"; bs "envelope"; bs "body"; bs "date"; bs "relational"; bs "copy"; bs "mailbox";
   bs "imap4flags"; bs "vacation"; bs "vacation-seconds"].

Definition clean (r : bytes) : Prop :=
  strip_dq (print_item r) = r /\ exact_string (print_item r) /\ utf8_valid (print_item r) = true.

Lemma known_clean : forall r, In r known_exts -> clean r /\ strip_dq r = r.
Proof.
  intros r H. unfold known_exts in H. cbn [In] in H.
  repeat (destruct H as [<-|H]; [repeat split; reflexivity|]). contradiction.
Qed.

Lemma fexts_known : forall conds acts e, In e (fexts conds acts) -> In e known_exts.
Proof.
  intros conds acts e H. unfold fexts in H. apply in_app_or in H as [H|H]; apply in_flat_map in H as (x & _ & H).
  - destruct x; cbn [cexts In] in H; try contradiction; unfold known_exts; cbn [In]; intuition auto.
  - destruct x as [copy create flags folder|copy addr|reason| | |subject period from addresses handle mime reason];
      cbn [aexts] in H; try contradiction;
      try destruct copy; try destruct create; try destruct flags; try destruct period as [[[|] n]|];
      cbn [In app] in H; unfold known_exts; cbn [In]; intuition auto.
Qed.

(* C06: the requirements recorded while a filter is built name every extension the filter uses *)
Theorem freqs_covers : forall conds acts reqs e, In e (fexts conds acts) -> mem e (freqs conds acts reqs) = true.
Proof.
  intros conds acts reqs e H. rewrite freqs_load, <- (proj2 (known_clean e (fexts_known conds acts e H))).
  apply load_exts_loads, H.
Qed.

Definition kreqs (reqs : list bytes) : Prop := Forall (fun r => In r known_exts) reqs.

Theorem freqs_known : forall conds acts reqs, kreqs reqs -> kreqs (freqs conds acts reqs).
Proof.
  intros conds acts reqs H. rewrite freqs_load. apply Forall_forall. intros e He. apply mem_In in He.
  destruct (load_exts_only _ _ _ He) as [He'|(x & Hx & ->)].
  - apply mem_In in He'. unfold kreqs in H. rewrite Forall_forall in H. apply H, He'.
  - pose proof (fexts_known conds acts x Hx) as K. rewrite (proj2 (known_clean x K)). exact K.
Qed.

Lemma loaded_by_require : forall reqs e, kreqs reqs -> mem e reqs = true ->
  mem e (load_exts (map print_item reqs) []) = true.
Proof.
  intros reqs e Hk H. apply mem_In in H. unfold kreqs in Hk. rewrite Forall_forall in Hk.
  rewrite <- (proj1 (proj1 (known_clean e (Hk e H)))). apply load_exts_loads, in_map, H.
Qed.

(* a filter's tree [n] stands for the command [g], which is legal wherever [exts] are loaded; [dis]: the command
   the parser builds for it is the `if false` wrapper *)
Definition good (n : node) (g : gcmd) (exts : list bytes) (dis : bool) : Prop :=
  canon_cmd fsep g n /\
  forall L prev, (forall e, In e exts -> mem e L = true) ->
    exists np, wf_cmd gen_tables L prev g np L /\ d_name (node_def np) = bs "if" /\ is_if_false np = dis.

Theorem filter_good : forall loaded conds acts anyof reqs,
  conds <> [] -> Forall cond_ok conds -> Forall act_ok acts -> Forall act_plain acts ->
  exists n, create_filter qin qlist gen_tables loaded (map ctuple conds) (map atuple acts) (mt_name anyof) reqs =
            BOk (n, freqs conds acts reqs) /\
            good n (fcmd conds acts anyof) (fexts conds acts) false.
Proof.
  intros loaded conds acts anyof reqs Hne Hc Ha Hp. exists (filter_node (cnode qin qlist) conds acts anyof).
  split; [apply create_filter_node; [exact Hne|eapply Forall_impl; [|exact Hc]; exact cond_ok_buildable|exact Hp]|].
  split; [apply (canon_filter_node conds acts anyof Hne Hc Ha)|].
  intros L prev HL. exists (filter_node (pnode qin) conds acts anyof).
  split; [apply (wf_filter_node conds acts anyof L prev Hne Hc Ha HL)|split; [reflexivity|destruct anyof; reflexivity]].
Qed.

(* disablefilter: `if false { filter }` *)
Definition wrapped (g : gcmd) : gcmd := GCtl (bs "if") (GSimple (bs "false") []) [g].

(* the tree disablefilter builds around the tree [n], and the parser around the tree of the inner command *)
Definition wrap_node (n : node) : node := if_node (Node (tdef (bs "false")) [] [] [] []) [n].

Lemma wrap_disabled_eq : forall loaded n, wrap_disabled gen_tables loaded n = BOk (wrap_node n).
Proof. reflexivity. Qed.

Lemma wf_wrap_node : forall L prev g np,
  wf_cmd gen_tables L None g np L -> wf_cmd gen_tables L prev (wrapped g) (wrap_node np) L.
Proof.
  intros L prev g np W. pose (ia := hd (mkArg [] [] false None None None None) (d_args (tdef (bs "if")))).
  unfold wrapped, wrap_node, if_node. change (bs "test") with (a_name ia).
  apply wf_ctl; [reflexivity|reflexivity|reflexivity|reflexivity|reflexivity|reflexivity| |eapply wf_cons; [exact W|apply wf_nil]].
  apply wf_simple; [reflexivity|reflexivity|reflexivity|reflexivity|reflexivity|reflexivity|constructor|reflexivity].
Qed.

Lemma wrap_good : forall loaded n g exts dis, good n g exts dis ->
  exists n', wrap_disabled gen_tables loaded n = BOk n' /\ good n' (wrapped g) exts true.
Proof.
  intros loaded n g exts dis [Hcan Hwf]. exists (wrap_node n). split; [apply wrap_disabled_eq|]. split.
  - unfold wrapped, wrap_node, if_node.
    eapply cc_ctl'; [reflexivity|reflexivity|reflexivity|reflexivity|reflexivity|reflexivity|reflexivity| |].
    + eapply ct_simple'; [reflexivity|reflexivity|reflexivity|apply sa_nil].
    + constructor; [exact Hcan|constructor].
  - intros L prev HL. destruct (Hwf L None HL) as (np & W & _).
    exists (wrap_node np). split; [apply (wf_wrap_node L prev g np W)|split; reflexivity].
Qed.

Record sfilter := mkSF { sf_name : bytes; sf_desc : option bytes; sf_node : node; sf_g : gcmd; sf_exts : list bytes; sf_dis : bool }.

Definition sf_bf (x : sfilter) : bfilter := mkBF (sf_name x) (sf_node x) (negb (sf_dis x)) (sf_desc x).

Variable name_pre desc_pre : bytes.

(* the marker lines written before a filter *)
Definition sf_cms (x : sfilter) : list bytes :=
  (name_pre ++ sf_name x)%list :: match sf_desc x with Some (c :: t) => [(desc_pre ++ c :: t)%list] | _ => [] end.

Definition sf_ok (reqs : list bytes) (fuel : nat) (x : sfilter) : Prop :=
  good (sf_node x) (sf_g x) (sf_exts x) (sf_dis x) /\ (forall e, In e (sf_exts x) -> mem e reqs = true) /\
  Forall hash_ok (sf_cms x) /\ dc (sf_g x) <= fuel.

Lemma render_filter_eq : forall fuel x,
  render_filter fuel name_pre desc_pre (sf_bf x) =
  (concat (map (fun c => c ++ [10%N]) (sf_cms x)) ++ tosieve fuel (sf_node x) 0)%list.
Proof.
  intros fuel x. unfold render_filter, sf_cms, sf_bf, LF. cbn [bf_name bf_desc bf_content].
  destruct (sf_desc x) as [[|c t]|]; cbn [map concat]; rewrite <- ?app_assoc; cbn [app]; rewrite ?app_nil_r; reflexivity.
Qed.

Definition sf_top (ex : bytes) (x : sfilter) : xtop := (ex, (sf_cms x, sf_g x)).
Definition sf_item (ex : bytes) (x : sfilter) : xitem := (ex, (sf_cms x, sf_node x)).
(* [ex0]: what stands before the first filter, the line feed render_set writes after the require line or nothing *)
Definition ftops (ex0 : bytes) (sfs : list sfilter) : list xtop :=
  match sfs with [] => [] | x :: r => sf_top ex0 x :: map (sf_top []) r end.
Definition fitems (ex0 : bytes) (sfs : list sfilter) : list xitem :=
  match sfs with [] => [] | x :: r => sf_item ex0 x :: map (sf_item []) r end.

Lemma is_if_false_comments : forall n c, is_if_false (with_comments n c) = is_if_false n.
Proof. intros [d a e k c0] c. reflexivity. Qed.

Definition parsed_as (x : sfilter) (np : node) : Prop :=
  node_comments np = map strip_ws (sf_cms x) /\ d_name (node_def np) = bs "if" /\ is_if_false np = sf_dis x.

Lemma filters_wf : forall reqs fuel sfs L prev,
  Forall (sf_ok reqs fuel) sfs -> (forall e, mem e reqs = true -> mem e L = true) ->
  exists nps, wf_tops gen_tables L prev (map (fun x => (sf_cms x, sf_g x)) sfs) nps L /\ Forall2 parsed_as sfs nps.
Proof.
  intros reqs fuel sfs L. induction sfs as [|x r IH]; intros prev H HL.
  - exists []. split; constructor.
  - inversion H as [|x' r' [[_ Hwf] [Hex _]] Hr]; subst.
    destruct (Hwf L prev) as (np & W & Hn & Hd); [intros e He; apply HL, Hex, He|].
    destruct (IH (Some (d_name (node_def np))) Hr HL) as (nps & Wr & Hps).
    exists (with_comments np (map strip_ws (sf_cms x)) :: nps). split.
    + cbn [map]. eapply wt_cons; [exact W|exact Wr].
    + constructor; [|exact Hps]. split; [reflexivity|]. split; [destruct np; exact Hn|]. rewrite is_if_false_comments. exact Hd.
Qed.

Lemma ftops_snd : forall ex0 sfs, map snd (ftops ex0 sfs) = map (fun x => (sf_cms x, sf_g x)) sfs.
Proof. intros ex0 [|x r]; [reflexivity|]. cbn [ftops map]. f_equal. rewrite map_map. reflexivity. Qed.

(* what set_parses asks of the commented commands [tops] and the trees [items] printed for them *)
Definition tops_fit (fuel : nat) (tops : list xtop) (items : list xitem) : Prop :=
  Forall2 (top_canon fsep) tops items /\
  Forall (fun x : xtop => all_space (fst x) /\ Forall hash_ok (fst (snd x))) tops /\ tops_depth tops <= fuel.

Lemma tops_fit_cons : forall fuel ex cms g n tops items,
  all_space ex -> Forall hash_ok cms -> canon_cmd fsep g n -> dc g <= fuel -> tops_fit fuel tops items ->
  tops_fit fuel ((ex, (cms, g)) :: tops) ((ex, (cms, n)) :: items).
Proof.
  intros fuel ex cms g n tops items Hs Hh Hc Hd (A & B & C). split; [|split].
  - constructor; [repeat split; exact Hc|exact A].
  - constructor; [split; assumption|exact B].
  - unfold tops_depth in *. cbn [fold_right snd]. apply Nat.max_lub; assumption.
Qed.

Lemma ftops_fit : forall reqs fuel ex0 sfs, all_space ex0 -> Forall (sf_ok reqs fuel) sfs ->
  tops_fit fuel (ftops ex0 sfs) (fitems ex0 sfs).
Proof.
  assert (G : forall reqs fuel sfs, Forall (sf_ok reqs fuel) sfs -> tops_fit fuel (map (sf_top []) sfs) (map (sf_item []) sfs)).
  { induction 1 as [|y l [[Hc _] [_ [Hh Hd]]] _ IH]; [repeat split; [constructor|constructor|apply Nat.le_0_l]|].
    apply tops_fit_cons; [reflexivity|exact Hh|exact Hc|exact Hd|exact IH]. }
  intros reqs fuel ex0 [|x r] Hs H; [repeat split; [constructor|constructor|apply Nat.le_0_l]|].
  inversion H as [|x' r' [[Hc _] [_ [Hh Hd]]] Hr]; subst.
  apply tops_fit_cons; [exact Hs|exact Hh|exact Hc|exact Hd|apply (G reqs fuel r Hr)].
Qed.

Lemma fitems_text : forall fuel ex0 sfs,
  set_text fuel (fitems ex0 sfs) =
  match sfs with [] => [] | _ => (ex0 ++ concat (map (render_filter fuel name_pre desc_pre) (map sf_bf sfs)))%list end.
Proof.
  intros fuel ex0 [|x r]; [reflexivity|]. unfold set_text. cbn [fitems map concat sf_item fst snd].
  rewrite render_filter_eq, <- !app_assoc. f_equal. f_equal. f_equal.
  induction r as [|y l IH]; [reflexivity|]. cbn [map concat sf_item fst snd]. rewrite render_filter_eq, IH, <- !app_assoc. reflexivity.
Qed.

Definition req_cmd (reqs : list bytes) : gcmd := GAct (bs "require") [(TyStringList, VList (map print_item reqs))].
Definition req_node (reqs : list bytes) : node := Node (tdef (bs "require")) [(bs "capabilities", VList reqs)] [] [] [].

Lemma gen_require_eq : forall loaded r0 rest,
  gen_require gen_tables loaded (r0 :: rest) = BOk (Some (req_node (r0 :: rest))).
Proof. intros. vm_compute. reflexivity. Qed.

Lemma kreqs_items : forall reqs, kreqs reqs ->
  Forall exact_string (map print_item reqs) /\ Forall (fun s => utf8_valid s = true) (map print_item reqs).
Proof.
  intros reqs H. unfold kreqs in H. induction H as [|r l Hr _ [IH1 IH2]]; [split; constructor|].
  destruct (known_clean r Hr) as ((_ & A & B) & _). cbn [map]. split; constructor; assumption.
Qed.

Lemma req_canon : forall r0 rest, kreqs (r0 :: rest) -> canon_cmd fsep (req_cmd (r0 :: rest)) (req_node (r0 :: rest)).
Proof.
  intros r0 rest Hk. destruct (kreqs_items _ Hk) as (He & _).
  unfold req_cmd, req_node. eapply cc_act'; [reflexivity|reflexivity|vm_compute; congruence|reflexivity|].
  eapply sa_pos; [reflexivity|reflexivity| |apply sa_nil].
  apply va_rawlist; [reflexivity|discriminate|exact He|vm_compute; exact I].
Qed.

(* the tree the parser builds for the require line *)
Definition req_pnode (reqs : list bytes) : node :=
  Node (def_of (bs "require")) [(bs "capabilities", VList (map print_item reqs))] [] [] [].

Lemma req_wf : forall r0 rest, kreqs (r0 :: rest) ->
  wf_cmd gen_tables [] None (req_cmd (r0 :: rest)) (req_pnode (r0 :: rest)) (load_exts (map print_item (r0 :: rest)) []).
Proof.
  intros r0 rest Hk. destruct (kreqs_items _ Hk) as (_ & Hu).
  unfold req_cmd, req_pnode. set (items := map print_item (r0 :: rest)) in *.
  assert (Hne : items <> []) by (unfold items; discriminate). clearbody items.
  eapply wf_act; [reflexivity|vm_compute; congruence|reflexivity|reflexivity|reflexivity| |reflexivity|reflexivity|vm_compute; reflexivity].
  constructor; [split; [exact Hne|exact Hu]|constructor].
Qed.

(* what is loaded, and which command came last, when the parser reaches the first filter *)
Definition loaded_after (reqs : list bytes) : list bytes :=
  match reqs with [] => [] | _ => load_exts (map print_item reqs) [] end.
Definition prev_after (reqs : list bytes) : option bytes :=
  match reqs with [] => None | _ => Some (bs "require") end.

(* C06 / C11: the text FiltersSet.tosieve writes for a set of good filters with requirements that cover them is
   accepted by the parser and parses to: the require command (when there are requirements), then the filters in
   order, each an `if` carrying its marker lines, `if false` exactly for the disabled ones *)
(* fuel 1 is for the require command; sf_ok asks the fuel each filter needs *)
Theorem set_accepted : forall loaded fuel reqs sfs,
  sfs <> [] -> kreqs reqs -> Forall (sf_ok reqs fuel) sfs -> 1 <= fuel ->
  exists text ns nps,
    render_set gen_tables loaded fuel name_pre desc_pre (mkBS reqs (map sf_bf sfs)) = BOk text /\
    parse gen_tables text = Accept ns /\
    Forall2 parsed_as sfs nps /\
    match reqs with
    | [] => ns = nps
    | _ => ns = req_pnode reqs :: nps
    end /\
    (* the derivation behind it: the script is in the grammar, these are its nodes *)
    wf_tops gen_tables (loaded_after reqs) (prev_after reqs) (map (fun x => (sf_cms x, sf_g x)) sfs) nps (loaded_after reqs).
Proof.
  intros loaded fuel reqs sfs Hne Hk Hok Hfuel. unfold render_set. cbn [bs_requires bs_filters].
  destruct reqs as [|r0 rest].
  - cbn [gen_require bbind app].
    destruct (filters_wf [] fuel sfs [] None Hok (fun e H => H)) as (nps & W & Hps).
    eexists _, nps, nps. split; [reflexivity|]. split; [|split; [exact Hps|split; [reflexivity|exact W]]].
    pose proof (fitems_text fuel [] sfs) as E. destruct sfs as [|x r]; [congruence|]. cbn [app] in E. rewrite <- E.
    destruct (ftops_fit [] fuel [] (x :: r) eq_refl Hok) as (A & B & C).
    apply (set_parses fsep fsep_space gen_tables (ftops [] (x :: r)) _ nps [] fuel twf_gen_tables); try assumption; [|discriminate].
    rewrite ftops_snd. exact W.
  - rewrite gen_require_eq. cbn [bbind].
    pose proof (req_wf r0 rest Hk) as Wq. set (rqp := req_pnode (r0 :: rest)) in *.
    set (L1 := load_exts (map print_item (r0 :: rest)) []) in *.
    destruct (filters_wf (r0 :: rest) fuel sfs L1 (Some (d_name (node_def rqp))) Hok) as (nps & W & Hps).
    { intros e He. apply loaded_by_require; assumption. }
    eexists _, (with_comments rqp (map strip_ws []) :: nps), nps. split; [reflexivity|].
    split; [|split; [exact Hps|split; [reflexivity|exact W]]].
    pose proof (fitems_text fuel LF sfs) as E. destruct sfs as [|x r]; [congruence|].
    assert (Et : (tosieve fuel (req_node (r0 :: rest)) 0 ++ LF) ++ concat (map (render_filter fuel name_pre desc_pre) (map sf_bf (x :: r))) =
                 set_text fuel (([], ([], req_node (r0 :: rest))) :: fitems LF (x :: r))).
    { unfold set_text at 1. cbn [map concat fst snd app]. fold (set_text fuel (fitems LF (x :: r))). rewrite E, <- !app_assoc. reflexivity. }
    rewrite Et.
    destruct (tops_fit_cons fuel [] [] (req_cmd (r0 :: rest)) (req_node (r0 :: rest)) _ _ eq_refl (Forall_nil _) (req_canon r0 rest Hk) Hfuel
                (ftops_fit (r0 :: rest) fuel LF (x :: r) eq_refl Hok)) as (A & B & C).
    apply (set_parses fsep fsep_space gen_tables (([], ([], req_cmd (r0 :: rest))) :: ftops LF (x :: r)) _ _ L1 fuel twf_gen_tables);
      try assumption; [|discriminate].
    cbn [map snd]. rewrite ftops_snd. eapply wt_cons; [exact Wq|exact W].
Qed.

End Filt.

Lemma std_qin_eq : forall s, vok s -> quote_if_necessary s = quote s.
Proof. intros s H. exact H. Qed.
Lemma std_qlist_eq : forall l, quote_list l = 91%N :: join [44%N] (map quote l) ++ [93%N].
Proof. reflexivity. Qed.

Definition std_fcmd := fcmd quote_if_necessary.

Theorem factory_filter_good : forall loaded conds acts anyof reqs,
  conds <> [] -> Forall cond_ok conds -> Forall act_ok acts -> Forall act_plain acts ->
  exists n, create_filter quote_if_necessary quote_list gen_tables loaded (map ctuple conds) (map atuple acts) (mt_name anyof) reqs =
            BOk (n, freqs conds acts reqs) /\
            good n (std_fcmd conds acts anyof) (fexts conds acts) false.
Proof. exact (filter_good quote_if_necessary quote_list std_qin_eq std_qlist_eq). Qed.

Theorem factory_set_accepted : forall name_pre desc_pre loaded fuel reqs sfs,
  sfs <> [] -> kreqs reqs -> Forall (sf_ok name_pre desc_pre reqs fuel) sfs -> 1 <= fuel ->
  exists text ns nps,
    render_set gen_tables loaded fuel name_pre desc_pre (mkBS reqs (map sf_bf sfs)) = BOk text /\
    parse gen_tables text = Accept ns /\
    Forall2 (parsed_as name_pre desc_pre) sfs nps /\
    match reqs with
    | [] => ns = nps
    | _ => ns = req_pnode reqs :: nps
    end /\
    wf_tops gen_tables (loaded_after reqs) (prev_after reqs) (map (fun x => (sf_cms name_pre desc_pre x, sf_g x)) sfs) nps (loaded_after reqs).
Proof. exact set_accepted. Qed.

Print Assumptions factory_filter_good.
Print Assumptions factory_set_accepted.
Print Assumptions freqs_covers.

(* non-vacuity: a definition with hostile values meets the hypotheses, and the pipeline computes *)

Definition ex_conds : list dcond :=
  [DHeader false MContains (HStr (bs "Subject")) (HStr (bs "a""b\c"));
   DHeader true MIs (HList [bs "To"; bs "Cc"]) (HList [bs "x, y"; bs "] { discard; } #"]);
   DExists true [bs "X-Spam"; bs "X,Y"];
   DSize true false (bs "2048");
   DEnvelope true MMatches [bs "from"] [bs "*@example.org"];
   DAddress false MIs (HList [bs "from"]) (HStr (bs "me@example.org"));
   DBody false true MContains [bs "viagra"; bs """"];
   DCurrentdate false (bs "+0100") MIs (bs "date") [bs "2024-01-01"];
   DCurrentdateValue (bs "+0100") RGe (bs "date") [bs "2024-01-01"];
   DTrue].
Definition ex_acts : list dact :=
  [AFileinto true true (Some (HList [bs "\Seen"; bs "a b"])) (bs "INBOX.caf" ++ [195%N; 169%N]);
   ARedirect true (bs "x@example.org");
   AVacation (Some (bs "away")) (Some (true, bs "3600")) (Some (bs "me@example.org")) (Some [bs "a@b"; bs "c@d"])
             (Some (bs "h")) true (bs "two" ++ [10%N] ++ bs "lines");
   AStop].

Ltac soks := split; [apply vokb_ok; reflexivity|reflexivity].
Ltac uall := repeat (apply Forall_cons || apply Forall_nil); try reflexivity.

Example ex_ok : Forall cond_ok ex_conds /\ Forall act_ok ex_acts /\ Forall act_plain ex_acts.
Proof.
  split; [|split].
  - unfold ex_conds. repeat (apply Forall_cons || apply Forall_nil); cbn [cond_ok hdr_ok hv_ok hva_ok].
    + split; [reflexivity|split; soks].
    + split; [exact I|split; (split; [discriminate|repeat (apply Forall_cons || apply Forall_nil); soks])].
    + split; [discriminate|uall].
    + apply num_okb_ok. reflexivity.
    + split; (split; [discriminate|uall]).
    + split; [split; [discriminate|uall]|soks].
    + split; [discriminate|uall].
    + split; [soks|split; [soks|split; [discriminate|uall]]].
    + split; [soks|split; [soks|split; [discriminate|uall]]].
    + exact I.
  - unfold ex_acts. repeat (apply Forall_cons || apply Forall_nil); cbn [act_ok hv_ok osok].
    + split; [split; [discriminate|repeat (apply Forall_cons || apply Forall_nil); soks]|soks].
    + soks.
    + split; [soks|split; [apply num_okb_ok; reflexivity|split; [soks|split; [split; [discriminate|repeat (apply Forall_cons || apply Forall_nil); soks]|split; soks]]]].
    + exact I.
  - unfold ex_acts, act_plain. repeat (apply Forall_cons || apply Forall_nil); cbn; repeat (apply Forall_cons || apply Forall_nil); reflexivity.
Qed.

(* the same definition through the executable model: built, rendered with its marker comment, parsed *)
Example ex_pipeline :
  match b_addfilter gen_tables [] (bs "my filter") (map ctuple ex_conds) (map atuple ex_acts) (bs "anyof") b_empty with
  | BOk (RNone, st) =>
      match b_render gen_tables [] 8 (bs "# Filter: ") (bs "# Description: ") (snd (b_step (FDisable (bs "my filter")) st)) with
      | BOk text =>
          match parse gen_tables text with
          | Accept [rq; f] => d_name (node_def rq) = bs "require" /\ node_comments f = [bs "# Filter: my filter"] /\ is_if_false f = true
          | _ => False
          end
      | _ => False
      end
  | _ => False
  end.
Proof. vm_compute. repeat split. Qed.
