(* ReadReload.v — read-back on the trees the PARSER builds for a filter's script (C19: "... and on a set reloaded
   from its rendered script").

   The parser stores a string list as a list of its (quoted) items, so the args_as_tuple methods take their list
   branch: the list is first rendered as text again ([render]) and then split.  For the documented condition forms
   with values free of commas, double quotes and backslashes the result is again exactly what was supplied. *)
From Coq Require Import List NArith Bool Arith Lia.
From Coq Require String.
Import String.StringSyntax.
From SV Require Import lib.Bytes lib.BytesFacts sieve.Lexer sieve.Tables sieve.ArgCheck sieve.ArgSpec sieve.Machine sieve.Printer
  sieve.TotalFacts sieve.CompleteFacts sieve.CompleteTree sieve.WfFun sieve.RenderFacts sieve.PrintTree sieve.GateFacts gen.GenTables
  factory.Text factory.TextFacts factory.Ops factory.Build factory.BuildFacts factory.BuildSet factory.Read factory.ReadFacts.
Import ListNotations.
Local Close Scope N_scope.
Local Open Scope string_scope.

Section Parsed.
Variable qin : bytes -> bytes.
Variable strip : bytes -> bytes.
Variable has_comma : bytes -> bool.
Variable tolist : bool -> bytes -> list bytes.
Variable is_bracket : bytes -> bool.
Variable is_digits : bytes -> bool.
Variable render : list bytes -> bytes.

Hypothesis qin_eq : forall s, vok s -> qin s = quote s.
Hypothesis Hstrip : forall s, rd s -> strip (qin s) = s.
Hypothesis Hcomma : forall s, rd s -> has_comma (qin s) = false.
Hypothesis Hbr_s : forall s, rd s -> is_bracket (qin s) = false.
Hypothesis Hbr_r : forall l, is_bracket (render l) = true.
Hypothesis Hrl : forall l, lrd l -> tolist true (render (map quote l)) = l.
Hypothesis Hdig : forall n, all_digits n = true -> is_digits n = true.

Notation ctuple_of := (cond_tuple strip has_comma tolist is_bracket is_digits render).
Notation conditions := (conditions_of strip has_comma tolist is_bracket is_digits render).
Notation actions := (actions_of strip has_comma tolist).

(* The readers reach a list only through v_text, which gives for
   the list of quoted items the text that [render] makes of it: so the tree reads like the factory's tree over that text *)
Lemma pnode_tuple : forall d, rcond_ok d -> ctuple_of (pnode qin d) = Some (ROk (traw d)).
Proof using qin_eq Hstrip Hcomma Hbr_s Hbr_r Hrl Hdig.
  intros d Hok.
  rewrite <- (cnode_tuple qin (fun l => render (map quote l)) strip has_comma tolist is_bracket is_digits render
                Hstrip Hcomma Hbr_s (fun l => Hbr_r (map quote l)) Hrl Hdig qin_eq d Hok).
  destruct d; reflexivity.
Qed.

Lemma pmaps_no_test : forall d, Forall (fun kv => no_test (snd kv)) (pmaps qin d).
Proof.
  intro d. destruct d as [neg m [s|l] [s2|l2]|neg names|neg over n|neg m hs ks|neg m [s|l] [s2|l2]|neg raw m vals|neg zone m part keys|zone r part keys| |];
    repeat constructor.
Qed.

Lemma read_cond_parsed : forall d L, cond_ok d -> rcond_ok d -> (forall e, In e (cexts d) -> mem e L = true) ->
  exists n, wf_test gen_tables L (ctest qin d) n /\
            is_named n k_not = false /\
            ctuple_of n = Some (ROk (traw d)) /\
            (forall k, walk (S k) n = [n]) /\
            (if cneg d then fold_not (d_name (node_def n)) (traw d) else ROk (traw d)) = ROk (expected d) /\
            is_action n = false.
Proof.
  intros d L Hok Hr HL. exists (pnode qin d). destruct (leaf_kind d (pmaps qin d) (cextra qin d)) as (Hn & Ha).
  split; [apply (wf_pnode qin qin_eq d L Hok HL)|]. split; [exact Hn|]. split; [apply (pnode_tuple d Hr)|].
  split; [intro k; apply leaf_walk, pmaps_no_test|]. split; [apply (fold_not_expected d)|exact Ha].
Qed.

Notation reads := (reads_as strip has_comma tolist is_bracket is_digits render).

Lemma pnode_reads : forall d, rcond_ok d -> reads (gnode (pnode qin) d) (expected d).
Proof.
  intros d Hr. destruct (leaf_kind d (pmaps qin d) (cextra qin d)) as (Hn & Ha).
  apply leaf_reads_as; [exact Hn|apply (pnode_tuple d Hr)| |apply (fold_not_expected d)|exact Ha].
  intro k. apply leaf_walk, pmaps_no_test.
Qed.

(* C19 on the tree the parser builds for a filter's script: conditions, match type and actions *)
Theorem parsed_filter_node : forall conds acts anyof L prev fuel,
  conds <> [] -> Forall cond_ok conds -> Forall rcond_ok conds -> Forall act_ok acts ->
  (forall e, In e (fexts conds acts) -> mem e L = true) -> 4 <= fuel ->
  wf_cmd gen_tables L prev (fcmd qin conds acts anyof) (filter_node qin (pnode qin) conds acts anyof) L /\
  get_conditions strip has_comma tolist is_bracket is_digits render fuel (filter_node qin (pnode qin) conds acts anyof) =
    ROk (map expected conds) /\
  get_matchtype fuel (filter_node qin (pnode qin) conds acts anyof) = Some (mt_name anyof) /\
  (Forall ract_ok acts ->
   get_actions strip has_comma tolist fuel (filter_node qin (pnode qin) conds acts anyof) = ROk (map aexpected acts)).
Proof.
  intros conds acts anyof L prev fuel Hne Hc Hr Ha HL Hfuel.
  split; [apply (wf_filter_node qin qin_eq conds acts anyof L prev Hne Hc Ha HL)|]. unfold filter_node.
  destruct (kids_skip qin strip has_comma tolist is_bracket is_digits render acts (map (anode qin) acts)) as (Ek & Fk);
    [apply Forall2_map; eapply Forall_impl; [|exact Ha]; exact (canon_anode qin qin_eq)|].
  destruct (readers_on_filter strip has_comma tolist is_bracket is_digits render anyof (map (gnode (pnode qin)) conds)
              (map expected conds) (map (anode qin) acts) fuel) as (Gc & Gm & Ga);
    [apply Forall2_map; eapply Forall_impl; [|exact Hr]; exact pnode_reads|exact Ek|exact Hfuel|].
  split; [apply Gc, Fk|]. split; [exact Gm|]. intro Hra. rewrite Ga.
  apply (anodes_read qin strip has_comma tolist Hstrip Hcomma acts Hra).
Qed.

End Parsed.

Lemma std_Hbr_r : forall l, std_is_bracket (render_list l) = true.
Proof. reflexivity. Qed.

(* the list branch of args_as_tuple: the items are put between quotes once more, joined, split again, stripped *)
Lemma strip_requoted : forall v, plain v = true -> strip_dq ([34%N] ++ quote v ++ [34%N]) = v.
Proof.
  intros v Hp. unfold quote. rewrite (escape_plain v Hp). cbn [app]. rewrite <- app_assoc.
  apply (strip_dq_between [34%N; 34%N] [34%N; 34%N] v Hp); repeat constructor.
Qed.

Lemma requoted_no_comma : forall v, plain v = true -> contains_byte 44%N ([34%N] ++ quote v ++ [34%N]) = false.
Proof.
  intros v Hp. rewrite !contains_byte_app, (contains_quote_plain v Hp). reflexivity.
Qed.

(* tools.to_list after the FIXME re-rendering gives the items back *)
Lemma std_Hrl : forall l, lrd l -> std_tolist true (render_list (map quote l)) = l.
Proof.
  intros l [Hne Hp]. unfold std_tolist, to_list, render_list. cbn [app]. rewrite drop_ends_brackets.
  rewrite split_comma_join.
  - rewrite map_map. clear Hne. induction Hp as [|v r Hv _ IH]; [reflexivity|]. cbn [map]. rewrite IH.
    f_equal. apply (strip_requoted v Hv).
  - destruct l; [congruence|discriminate].
  - rewrite map_map. clear Hne. induction Hp as [|v r Hv _ IH]; constructor; [apply (requoted_no_comma v Hv)|exact IH].
Qed.

(* C19 on parser trees: the tree the parser builds for the script of a documented filter is read back as supplied *)
Definition std_pfilter (conds : list dcond) (acts : list dact) (anyof : bool) : node :=
  filter_node quote_if_necessary (pnode quote_if_necessary) conds acts anyof.

Lemma factory_parsed_node : forall conds acts anyof L prev fuel,
  conds <> [] -> Forall cond_ok conds -> Forall rcond_ok conds -> Forall act_ok acts ->
  (forall e, In e (fexts conds acts) -> mem e L = true) -> 4 <= fuel ->
  wf_cmd gen_tables L prev (std_fcmd conds acts anyof) (std_pfilter conds acts anyof) L /\
  std_get_conditions fuel (std_pfilter conds acts anyof) = ROk (map (fun d => map fv_rv (ctuple d)) conds) /\
  get_matchtype fuel (std_pfilter conds acts anyof) = Some (mt_name anyof) /\
  (Forall ract_ok acts ->
   std_get_actions fuel (std_pfilter conds acts anyof) = ROk (map (fun a => map fv_rv (atuple a)) acts)).
Proof.
  intros conds acts anyof L prev fuel Hne Hc Hr Ha HL Hf.
  destruct (parsed_filter_node quote_if_necessary strip_dq std_has_comma std_tolist std_is_bracket all_digits render_list
              std_qin_eq std_Hstrip std_Hcomma std_Hbr_s std_Hbr_r std_Hrl (fun n H => H)
              conds acts anyof L prev fuel Hne Hc Hr Ha HL Hf) as (Hw & Hg & Hm & Hact).
  split; [exact Hw|]. split; [|split; [exact Hm|exact Hact]].
  unfold std_get_conditions, std_pfilter. rewrite Hg. f_equal. apply map_ext. intro d. apply expected_is_supplied.
Qed.

Theorem factory_parsed_filter : forall conds acts anyof L prev fuel,
  conds <> [] -> Forall cond_ok conds -> Forall rcond_ok conds -> Forall act_ok acts ->
  (forall e, In e (fexts conds acts) -> mem e L = true) -> 4 <= fuel ->
  exists np, wf_cmd gen_tables L prev (std_fcmd conds acts anyof) np L /\
             std_get_conditions fuel np = ROk (map (fun d => map fv_rv (ctuple d)) conds) /\
             get_matchtype fuel np = Some (mt_name anyof).
Proof.
  intros conds acts anyof L prev fuel Hne Hc Hr Ha HL Hf.
  destruct (factory_parsed_node conds acts anyof L prev fuel Hne Hc Hr Ha HL Hf) as (W & Gc & Gm & _). eauto.
Qed.

Theorem factory_parsed_actions : forall conds acts anyof L prev fuel,
  conds <> [] -> Forall cond_ok conds -> Forall rcond_ok conds -> Forall act_ok acts -> Forall ract_ok acts ->
  (forall e, In e (fexts conds acts) -> mem e L = true) -> 4 <= fuel ->
  exists np, wf_cmd gen_tables L prev (std_fcmd conds acts anyof) np L /\
             std_get_actions fuel np = ROk (map (fun a => map fv_rv (atuple a)) acts).
Proof.
  intros conds acts anyof L prev fuel Hne Hc Hr Ha Hra HL Hf.
  destruct (factory_parsed_node conds acts anyof L prev fuel Hne Hc Hr Ha HL Hf) as (W & _ & _ & Ga). eauto.
Qed.

Print Assumptions factory_parsed_filter.

Lemma read_ignores_comments : forall fuel n c,
  std_get_conditions fuel (with_comments n c) = std_get_conditions fuel n /\
  get_matchtype fuel (with_comments n c) = get_matchtype fuel n /\
  std_get_actions fuel (with_comments n c) = std_get_actions fuel n.
Proof.
  intros [|k] [d a e ch c0] c; [repeat split; reflexivity|].
  unfold std_get_conditions, get_conditions, get_matchtype, std_get_actions, get_actions. rewrite !walk_S. unfold walk_step, with_comments.
  cbn [node_def node_args node_extra node_children]. repeat split; reflexivity.
Qed.

(* a filter as its definition: conditions, actions, anyof/allof *)
Definition fdef := (list dcond * list dact * bool)%type.

Definition def_ok (x : sfilter) (d : fdef) : Prop :=
  let '(c, a, any) := d in
  c <> [] /\ Forall cond_ok c /\ Forall rcond_ok c /\ Forall act_ok a /\ sf_exts x = fexts c a /\
  sf_g x = (if sf_dis x then wrapped (std_fcmd c a any) else std_fcmd c a any).

(* what getfilter returns for a loaded filter: the command, or what the `if false` wrapper holds *)
Definition got (dis : bool) (np flt : node) : Prop :=
  if dis then hd_error (node_children np) = Some flt else flt = np.

Definition read_ok (fuel : nat) (d : fdef) (flt : node) : Prop :=
  let '(c, a, any) := d in
  std_get_conditions fuel flt = ROk (map (fun x => map fv_rv (ctuple x)) c) /\
  get_matchtype fuel flt = Some (mt_name any).

Definition def_acts (d : fdef) : list dact := let '(_, a, _) := d in a.

Definition read_ok_full (fuel : nat) (d : fdef) (flt : node) : Prop :=
  read_ok fuel d flt /\ std_get_actions fuel flt = ROk (map (fun a => map fv_rv (atuple a)) (def_acts d)).

(* what is read from the filter [flt] against its definition: conditions and match type, and the actions when they
   are of the kind get_filter_actions gives back *)
Definition reads_def (fuel : nat) (d : fdef) (flt : node) : Prop :=
  read_ok fuel d flt /\
  (Forall ract_ok (def_acts d) -> std_get_actions fuel flt = ROk (map (fun a => map fv_rv (atuple a)) (def_acts d))).

(* one top-level command of the parsed script.  The parser's tree [n] is not given; that the grammar derivation
   determines it (WfFun.wf_cmd_fun) makes it the tree written out in std_pfilter / wrap_node. *)
Lemma top_read : forall cms fuel L prev x d n L1,
  4 <= fuel -> def_ok x d -> has_exts L (sf_exts x) -> wf_cmd gen_tables L prev (sf_g x) n L1 ->
  L1 = L /\ exists flt, got (sf_dis x) (with_comments n cms) flt /\ reads_def fuel d flt.
Proof.
  intros cms fuel L prev x [[c a] any] n L1 Hfuel (Hne & Hc & Hr & Ha & He & Hg) HL Wc. rewrite He in HL. rewrite Hg in Wc.
  destruct (sf_dis x).
  - destruct (factory_parsed_node c a any L None fuel Hne Hc Hr Ha HL Hfuel) as (W0 & G1 & G2 & G3).
    destruct (wf_cmd_fun gen_tables _ L prev n L1 _ L Wc (wf_wrap_node L prev _ _ W0)) as [-> ->]. split; [reflexivity|].
    exists (std_pfilter c a any). repeat split; assumption.
  - destruct (factory_parsed_node c a any L prev fuel Hne Hc Hr Ha HL Hfuel) as (W0 & G1 & G2 & G3).
    destruct (wf_cmd_fun gen_tables _ L prev n L1 _ L Wc W0) as [-> ->]. split; [reflexivity|].
    eexists. split; [reflexivity|]. destruct (read_ignores_comments fuel (std_pfilter c a any) cms) as (E1 & E2 & E3).
    unfold reads_def, read_ok, def_acts. rewrite E1, E2, E3. auto.
Qed.

Lemma tops_read : forall np dp reqs fuel L sfs defs prev nps,
  4 <= fuel ->
  Forall (sf_ok np dp reqs fuel) sfs -> (forall e, mem e reqs = true -> mem e L = true) ->
  Forall2 def_ok sfs defs ->
  wf_tops gen_tables L prev (map (fun x => (sf_cms np dp x, sf_g x)) sfs) nps L ->
  Forall2 (fun xd n => exists flt, got (sf_dis (fst xd)) n flt /\ reads_def fuel (snd xd) flt) (combine sfs defs) nps.
Proof.
  intros np dp reqs fuel L sfs defs prev nps Hfuel Hok HL Hd. revert prev nps Hok.
  induction Hd as [|x d sfs defs Hx Hrest IH]; intros prev nps Hok W.
  - inversion W; subst. constructor.
  - inversion Hok as [|x' r' [_ [Hex _]] Hokr]; subst.
    cbn [map] in W. inversion W as [|L0 p0 cms g n L1 rest ns L2 Wc Wr]; subst.
    destruct (top_read (map strip_ws (sf_cms np dp x)) fuel L prev x d n L1 Hfuel Hx) as (-> & flt & Hg & Hrd);
      [intros e He; apply HL, Hex, He|exact Wc|].
    cbn [combine]. constructor; [exists flt; split; assumption|]. eapply IH; [exact Hokr|exact Wr].
Qed.

Lemma reload_read : forall np dp loaded fuel reqs sfs defs,
  sfs <> [] -> kreqs reqs -> Forall (sf_ok np dp reqs fuel) sfs -> 4 <= fuel -> Forall2 def_ok sfs defs ->
  exists text ns nps,
    render_set gen_tables loaded fuel np dp (mkBS reqs (map sf_bf sfs)) = BOk text /\
    parse gen_tables text = Accept ns /\
    match reqs with [] => ns = nps | _ => ns = req_pnode reqs :: nps end /\
    Forall2 (fun xd n => exists flt, got (sf_dis (fst xd)) n flt /\ reads_def fuel (snd xd) flt) (combine sfs defs) nps.
Proof.
  intros np dp loaded fuel reqs sfs defs Hne Hk Hok Hfuel Hd.
  destruct (factory_set_accepted np dp loaded fuel reqs sfs Hne Hk Hok ltac:(lia)) as (text & ns & nps & Hr & Hp & _ & Hns & W).
  exists text, ns, nps. split; [exact Hr|]. split; [exact Hp|]. split; [exact Hns|].
  apply (tops_read np dp reqs fuel (loaded_after reqs) sfs defs (prev_after reqs) nps Hfuel Hok); [|exact Hd|exact W].
  intros e He. unfold loaded_after. destruct reqs as [|r0 rest]; [discriminate He|]. apply loaded_by_require; assumption.
Qed.

Lemma Forall2_weaken : forall (A B : Type) (R : A -> Prop) (P Q : A -> B -> Prop) l l',
  Forall R l -> (forall a b, R a -> P a b -> Q a b) -> Forall2 P l l' -> Forall2 Q l l'.
Proof.
  intros A B R P Q l l' HR H HP. induction HP as [|a b l l' Hab _ IH]; [constructor|].
  inversion HR; subst. constructor; auto.
Qed.

(* C19 on a set reloaded from its rendered script: the parser accepts the text FiltersSet.tosieve writes and every
   filter of the parsed script -- taken out of its `if false` wrapper when disabled, as getfilter does -- is read
   back by get_filter_conditions / get_filter_matchtype as it was defined *)
Theorem reload_read_back : forall np dp loaded fuel reqs sfs defs,
  sfs <> [] -> kreqs reqs -> Forall (sf_ok np dp reqs fuel) sfs -> 4 <= fuel ->
  Forall2 def_ok sfs defs ->
  exists text ns nps,
    render_set gen_tables loaded fuel np dp (mkBS reqs (map sf_bf sfs)) = BOk text /\
    parse gen_tables text = Accept ns /\
    match reqs with [] => ns = nps | _ => ns = req_pnode reqs :: nps end /\
    Forall2 (fun xd n => exists flt, got (sf_dis (fst xd)) n flt /\ read_ok fuel (snd xd) flt) (combine sfs defs) nps.
Proof.
  intros np dp loaded fuel reqs sfs defs Hne Hk Hok Hfuel Hd.
  destruct (reload_read np dp loaded fuel reqs sfs defs Hne Hk Hok Hfuel Hd) as (text & ns & nps & Hr & Hp & Hns & H).
  exists text, ns, nps. repeat split; try assumption.
  apply (Forall2_weaken _ _ (fun _ => True) _ _ (combine sfs defs) nps) with (3 := H); [apply Forall_forall; intros; exact I|].
  intros xd n _ (flt & Hg & Hrd & _). eauto.
Qed.

(* C19 on a reloaded set, conditions, match type AND actions: every filter of the parsed script is read back by
   get_filter_conditions / get_filter_matchtype / get_filter_actions as it was defined *)
Theorem reload_read_back_full : forall np dp loaded fuel reqs sfs defs,
  sfs <> [] -> kreqs reqs -> Forall (sf_ok np dp reqs fuel) sfs -> 4 <= fuel ->
  Forall2 def_ok sfs defs -> Forall (fun d => Forall ract_ok (def_acts d)) defs ->
  exists text ns nps,
    render_set gen_tables loaded fuel np dp (mkBS reqs (map sf_bf sfs)) = BOk text /\
    parse gen_tables text = Accept ns /\
    match reqs with [] => ns = nps | _ => ns = req_pnode reqs :: nps end /\
    Forall2 (fun xd n => exists flt, got (sf_dis (fst xd)) n flt /\ read_ok_full fuel (snd xd) flt) (combine sfs defs) nps.
Proof.
  intros np dp loaded fuel reqs sfs defs Hne Hk Hok Hfuel Hd Hra.
  destruct (reload_read np dp loaded fuel reqs sfs defs Hne Hk Hok Hfuel Hd) as (text & ns & nps & Hr & Hp & Hns & H).
  exists text, ns, nps. repeat split; try assumption.
  apply (Forall2_weaken _ _ (fun xd => Forall ract_ok (def_acts (snd xd))) _ _ (combine sfs defs) nps) with (3 := H).
  - apply Forall_forall. intros [x d] Hin. rewrite Forall_forall in Hra. apply Hra, (in_combine_r _ _ _ _ Hin).
  - intros xd n Hx (flt & Hg & Hrd & Hact). exists flt. split; [exact Hg|split; [exact Hrd|apply Hact, Hx]].
Qed.

Print Assumptions reload_read_back_full.
Print Assumptions reload_read_back.
