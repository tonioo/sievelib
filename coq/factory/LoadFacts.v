(* LoadFacts.v — saving a filter set and loading it back (C11).

   For every set of good filters (BuildSet.v) written by FiltersSet.tosieve, the parser accepts the text and
   from_parser_result (factory/Load.v) applied to the parsed commands gives back the same requirements, and the
   filters in the same order with the same names, descriptions and enabled flags. *)
From Coq Require Import List NArith Bool Arith Lia.
From Coq Require String.
Import String.StringSyntax.
From SV Require Import lib.Bytes lib.BytesFacts sieve.Lexer sieve.Tables sieve.ArgCheck sieve.ArgSpec sieve.Machine sieve.Printer
  sieve.CompleteFacts sieve.CompleteTree sieve.RenderFacts sieve.PrintTree sieve.GateFacts gen.GenTables
  factory.Text factory.TextFacts factory.Ops factory.Build factory.BuildFacts factory.BuildSet factory.Load.
Import ListNotations.
Local Close Scope N_scope.
Local Open Scope string_scope.

Section Reload.
Variable name_pre desc_pre : bytes.

Definition marker_ok (p : bytes) : Prop := match p with c :: _ => is_space c = false | [] => False end.
Definition text_ok (p x : bytes) : Prop := last_nonspace x = true /\ occurs p x = false.

Definition desc_of (x : sfilter) : bytes := match sf_desc x with Some (c :: t) => c :: t | _ => [] end.

(* what the caller must respect for the marker lines to be told apart *)
Definition lines_ok (x : sfilter) : Prop :=
  text_ok name_pre (sf_name x) /\
  starts_with desc_pre (stored_comment name_pre (sf_name x)) = false /\
  match sf_desc x with
  | Some (c :: t) => text_ok desc_pre (c :: t) /\ starts_with name_pre (stored_comment desc_pre (c :: t)) = false
  | _ => True
  end.

Hypothesis Hnp : marker_ok name_pre.
Hypothesis Hdp : marker_ok desc_pre.

Lemma recover_none : forall p c, starts_with p c = false -> recover p c = None.
Proof. intros p c H. unfold recover. rewrite H. reflexivity. Qed.

Lemma load_filter : forall x np cpt,
  parsed_as name_pre desc_pre x np -> lines_ok x ->
  fold_left (load_comment name_pre desc_pre) (node_comments np) (unnamed cpt, []) = (sf_name x, desc_of x).
Proof.
  intros x np cpt [Hc _] [[Hn1 Hn2] [Hs1 Hd]]. rewrite Hc. unfold sf_cms, desc_of.
  destruct (sf_desc x) as [[|c t]|]; cbn [map fold_left load_comment];
    change (strip_ws (name_pre ++ sf_name x)) with (stored_comment name_pre (sf_name x));
    rewrite (recover_stored name_pre (sf_name x) Hnp Hn1 Hn2), (recover_none _ _ Hs1); try reflexivity.
  destruct Hd as [[Hd1 Hd2] Hs2].
  change (strip_ws (desc_pre ++ c :: t)) with (stored_comment desc_pre (c :: t)).
  rewrite (recover_stored desc_pre (c :: t) Hdp Hd1 Hd2), (recover_none _ _ Hs2). reflexivity.
Qed.

Definition loaded_as (x : sfilter) (np : node) (f : lfilter) : Prop :=
  lf_name f = sf_name x /\ lf_desc f = desc_of x /\ lf_enabled f = negb (sf_dis x) /\ lf_content f = np.

Lemma load_filters : forall sfs nps cpt reqs,
  Forall2 (parsed_as name_pre desc_pre) sfs nps -> Forall lines_ok sfs ->
  exists lfs, load_from name_pre desc_pre cpt nps reqs = (reqs, lfs) /\
              Forall2 (fun x f => lf_name f = sf_name x /\ lf_desc f = desc_of x /\ lf_enabled f = negb (sf_dis x)) sfs lfs.
Proof.
  intros sfs nps cpt reqs H. revert cpt reqs. induction H as [|x np sfs nps Hp Hr IH]; intros cpt reqs Hl.
  - exists []. split; [reflexivity|constructor].
  - inversion Hl as [|x' r' Hx Hrest]; subst. cbn [load_from].
    assert (Hreq : is_require np = false).
    { destruct Hp as (_ & Hn & _). unfold is_require. rewrite Hn. reflexivity. }
    rewrite Hreq, (load_filter x np cpt Hp Hx).
    destruct (IH (cpt + 1)%N reqs Hrest) as (lfs & E & Hlf). rewrite E.
    eexists. split; [reflexivity|]. constructor; [|exact Hlf].
    cbn [lf_name lf_desc lf_enabled]. destruct Hp as (_ & _ & Hd). rewrite Hd. auto.
Qed.

Lemma fold_require : forall l acc,
  Forall (fun r => In r known_exts) l -> NoDup (acc ++ l)%list ->
  fold_left (fun a c => require c a) (map print_item l) acc = (acc ++ l)%list.
Proof.
  induction l as [|r l IH]; intros acc Hk Hnd; [rewrite app_nil_r; reflexivity|].
  inversion Hk as [|r' l' Hr Hl]; subst. cbn [map fold_left].
  assert (E : require (print_item r) acc = (acc ++ [r])%list).
  { unfold require. rewrite (proj1 (proj1 (known_clean r Hr))).
    destruct (mem r acc) eqn:Em; [|reflexivity].
    exfalso. apply mem_In in Em. apply NoDup_remove_2 in Hnd. apply Hnd. apply in_or_app. left. exact Em. }
  rewrite E, (IH (acc ++ [r])%list Hl); rewrite <- app_assoc; [reflexivity|exact Hnd].
Qed.

(* C11: save, parse, load: same requirements, same names in the same order, same descriptions, same enabled flags *)
Theorem reload_same : forall loaded fuel reqs sfs,
  sfs <> [] -> kreqs reqs -> NoDup reqs ->
  Forall (sf_ok name_pre desc_pre reqs fuel) sfs -> Forall lines_ok sfs -> 1 <= fuel ->
  exists text ns lfs,
    render_set gen_tables loaded fuel name_pre desc_pre (mkBS reqs (map sf_bf sfs)) = BOk text /\
    parse gen_tables text = Accept ns /\
    from_parser_result name_pre desc_pre ns = (reqs, lfs) /\
    Forall2 (fun x f => lf_name f = sf_name x /\ lf_desc f = desc_of x /\ lf_enabled f = negb (sf_dis x)) sfs lfs.
Proof.
  intros loaded fuel reqs sfs Hne Hk Hnd Hok Hl Hfuel.
  destruct (factory_set_accepted name_pre desc_pre loaded fuel reqs sfs Hne Hk Hok Hfuel) as (text & ns & nps & Hr & Hp & Hps & Hns & _).
  unfold from_parser_result.
  destruct reqs as [|r0 rest].
  - subst ns. destruct (load_filters sfs nps 1%N [] Hps Hl) as (lfs & E & Hlf).
    exists text, nps, lfs. auto.
  - subst ns. destruct (load_filters sfs nps 1%N (r0 :: rest) Hps Hl) as (lfs & E & Hlf).
    exists text, (req_pnode (r0 :: rest) :: nps), lfs. split; [exact Hr|]. split; [exact Hp|]. split; [|exact Hlf].
    cbn [load_from].
    assert (Hrq : is_require (req_pnode (r0 :: rest)) = true) by reflexivity. rewrite Hrq.
    assert (Hld : load_requires (req_pnode (r0 :: rest)) [] = r0 :: rest).
    { unfold load_requires, req_pnode. cbn [node_args].
      assert (Hg : assoc_get capabilities_key [(bs "capabilities", VList (map print_item (r0 :: rest)))] =
                   Some (VList (map print_item (r0 :: rest)))) by reflexivity.
      rewrite Hg. apply (fold_require (r0 :: rest) [] Hk). exact Hnd. }
    rewrite Hld. exact E.
Qed.

End Reload.

Print Assumptions reload_same.

(* non-vacuity: the example definition of BuildSet (hostile values), once enabled and once disabled with a
   description, saved with the standard markers and loaded back *)
Definition ex_np := bs "# Filter: ".
Definition ex_dp := bs "# Description: ".
Definition ex_reqs := freqs ex_conds ex_acts [].

Lemma hash_okb : forall v, match v with 35%N :: r => forallb (fun c => negb (N.eqb c 10%N)) r | _ => false end = true -> hash_ok v.
Proof.
  intros [|c r] H; [discriminate|]. destruct (N.eqb c 35) eqn:E.
  - apply N.eqb_eq in E. subst c. exists r. split; [reflexivity|exact H].
  - exfalso. destruct c as [|p]; [discriminate|]. do 6 (destruct p as [p|p|]; try discriminate).
Qed.

Example ex_reload :
  exists n n' text ns lfs,
    good n (std_fcmd ex_conds ex_acts true) (fexts ex_conds ex_acts) false /\
    good n' (wrapped (std_fcmd ex_conds ex_acts true)) (fexts ex_conds ex_acts) true /\
    render_set gen_tables [] 8 ex_np ex_dp
      (mkBS ex_reqs [mkBF (bs "my filter") n true None; mkBF (bs "caf" ++ [195%N; 169%N] ++ bs " #2") n' false (Some (bs "about ""it"""))]) = BOk text /\
    parse gen_tables text = Accept ns /\
    from_parser_result ex_np ex_dp ns = (ex_reqs, lfs) /\
    map (fun f => (lf_name f, lf_desc f, lf_enabled f)) lfs =
      [(bs "my filter", [], true); (bs "caf" ++ [195%N; 169%N] ++ bs " #2", bs "about ""it""", false)].
Proof.
  destruct ex_ok as (Hc & Ha & Hp).
  destruct (factory_filter_good [] ex_conds ex_acts true [] ltac:(discriminate) Hc Ha Hp) as (n & _ & Hg).
  destruct (wrap_good [] n _ _ _ Hg) as (n' & _ & Hg').
  set (x1 := mkSF (bs "my filter") None n (std_fcmd ex_conds ex_acts true) (fexts ex_conds ex_acts) false).
  set (x2 := mkSF (bs "caf" ++ [195%N; 169%N] ++ bs " #2") (Some (bs "about ""it""")) n' (wrapped (std_fcmd ex_conds ex_acts true)) (fexts ex_conds ex_acts) true).
  assert (Hcov : forall e, In e (fexts ex_conds ex_acts) -> mem e ex_reqs = true) by (intros e He; apply freqs_covers; exact He).
  destruct (reload_same ex_np ex_dp eq_refl eq_refl [] 8 ex_reqs [x1; x2]) as (text & ns & lfs & Hr & Hpa & Hl & Hlf).
  - discriminate.
  - apply freqs_known. constructor.
  - vm_compute. repeat constructor; cbn; intuition discriminate.
  - constructor; [|constructor; [|constructor]].
    + split; [exact Hg|]. split; [exact Hcov|]. split; [|vm_compute; lia].
      repeat constructor. apply hash_okb. reflexivity.
    + split; [exact Hg'|]. split; [exact Hcov|]. split; [|vm_compute; lia].
      repeat constructor; apply hash_okb; reflexivity.
  - constructor; [|constructor; [|constructor]]; unfold lines_ok, text_ok; cbn [sf_name sf_desc x1 x2]; repeat split; reflexivity.
  - lia.
  - exists n, n', text, ns, lfs. split; [exact Hg|]. split; [exact Hg'|]. split; [exact Hr|]. split; [exact Hpa|]. split; [exact Hl|].
    inversion Hlf as [|a1 f1 r1 l1 (A1 & A2 & A3) Hlf2]; subst. inversion Hlf2 as [|a2 f2 r2 l2 (B1 & B2 & B3) Hlf3]; subst.
    inversion Hlf3; subst. cbn [map]. rewrite A1, A2, A3, B1, B2, B3. reflexivity.
Qed.
