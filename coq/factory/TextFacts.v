(* TextFacts.v — facts about the text-level helpers of the filter factory (factory/Text.v) and the
   lexer (sieve/Lexer.v) that properties C06, C11 and C19 rest on.

   C06: whatever bytes a caller-supplied value contains, its quoted form lexes as exactly ONE string
        token, whatever follows it; the token's content unescapes to the value; a quoted list lexes
        as bracket, strings separated by commas, bracket.  Hence a value can never change the token
        structure of the script.
   C11: a marker comment written by FiltersSet.tosieve is one hash-comment token, stored stripped, and
        from_parser_result recovers the name / description exactly.
   C19: the comma splitter used when reading filters back inverts the list quoting on values free of
        commas, quotes and backslashes — and provably not beyond (witnesses). *)
From Coq Require Import String.
From Coq Require Import List NArith Bool Arith Lia.
From SV Require Import Bytes BytesFacts Lexer LexerFacts Text.
Import ListNotations.
Local Open Scope nat_scope.
Local Open Scope string_scope.
Local Open Scope list_scope.

Lemma scan_string_body_escape : forall v rest,
  scan_string_body (escape_q v ++ 34%N :: rest) = Some (S (length (escape_q v))).
Proof.
  induction v as [|c t IH]; intro rest; cbn [escape_q app].
  - reflexivity.
  - destruct ((c =? 92)%N || (c =? 34)%N) eqn:E.
    + (* an escaped byte: backslash, then c which is a backslash or a quote, never LF *)
      cbn [app scan_string_body]. cbn [N.eqb Pos.eqb].
      assert (Hc : (c =? 10)%N = false).
      { apply orb_true_iff in E. destruct E as [E|E]; apply N.eqb_eq in E; subst; reflexivity. }
      rewrite Hc, IH. cbn [length]. reflexivity.
    + apply orb_false_iff in E. destruct E as [E1 E2].
      cbn [app scan_string_body]. rewrite E2, E1, IH. reflexivity.
Qed.

(* the quoted form of ANY value is one string token, whatever follows *)
Theorem scan_string_quote : forall v rest,
  scan_string (quote v ++ rest) = Some (length (quote v)).
Proof.
  intros v rest. unfold quote. cbn [app scan_string]. rewrite <- app_assoc. cbn [app].
  rewrite scan_string_body_escape. cbn [length]. rewrite app_length. cbn [length].
  f_equal. lia.
Qed.

Lemma quote_exact : forall v, exact_string (quote v).
Proof. intro v. unfold exact_string. rewrite <- (app_nil_r (quote v)) at 1. apply scan_string_quote. Qed.

Theorem next_token_quote : forall pos v rest,
  next_token pos (quote v ++ rest) = LTok (mkTok TString (quote v) pos) rest.
Proof. intros pos v rest. apply next_token_exact, quote_exact. Qed.

(* the token's content decodes to the value: nothing added, nothing lost *)
Theorem unescape_escape : forall v, unescape_q (escape_q v) = v.
Proof. exact BytesFacts.unescape_escape. Qed.

Fixpoint next_n (n : nat) (pos : nat) (l : bytes) : option (list (tkind * bytes) * nat * bytes) :=
  match n with
  | O => Some ([], pos, l)
  | S k =>
      match next_token pos l with
      | LTok t rest =>
          match next_n k (t_pos t + length (t_val t)) rest with
          | Some (ts, p, r) => Some ((t_kind t, t_val t) :: ts, p, r)
          | None => None
          end
      | _ => None
      end
  end.

Fixpoint commas (items : list bytes) : list (tkind * bytes) :=
  match items with
  | [] => []
  | [x] => [(TString, x)]
  | x :: t => (TString, x) :: (TComma, [44%N]) :: commas t
  end.

Lemma next_token_single : forall pos c k rest,
  is_space c = false -> scan_rules (c :: rest) = Some (k, 1) ->
  next_token pos (c :: rest) = LTok (mkTok k [c] pos) rest.
Proof. intros pos c k rest Hs Hr. rewrite (next_token_nonspace pos c rest k 1 Hs Hr). reflexivity. Qed.

Lemma commas_cons_ne : forall x l, l <> [] -> commas (x :: l) = (TString, x) :: (TComma, [44%N]) :: commas l.
Proof. intros x [|y t] H; [congruence|reflexivity]. Qed.

Lemma next_n_SS : forall k pos l,
  next_n (S (S k)) pos l =
  match next_token pos l with
  | LTok t rest =>
      match (match next_token (t_pos t + length (t_val t)) rest with
             | LTok t2 rest2 =>
                 match next_n k (t_pos t2 + length (t_val t2)) rest2 with
                 | Some (ts, p, r) => Some ((t_kind t2, t_val t2) :: ts, p, r)
                 | None => None
                 end
             | _ => None
             end) with
      | Some (ts, p, r) => Some ((t_kind t, t_val t) :: ts, p, r)
      | None => None
      end
  | _ => None
  end.
Proof. reflexivity. Qed.

Lemma next_n_items : forall vs pos rest,
  vs <> [] ->
  next_n (2 * length vs) pos (join [44%N] (map fquote vs) ++ 93%N :: rest) =
  Some (commas (map fquote vs) ++ [(TRightBracket, [93%N])],
        pos + length (join [44%N] (map fquote vs)) + 1, rest).
Proof.
  induction vs as [|v t IH]; intros pos rest Hne; [congruence|].
  destruct t as [|w t'].
  - cbn [map join length Nat.mul Nat.add]. rewrite next_n_SS. unfold fquote.
    rewrite next_token_quote. cbn [t_pos t_val t_kind].
    rewrite (next_token_single _ 93%N TRightBracket rest); [|reflexivity|reflexivity].
    cbn [t_pos t_val t_kind length commas app next_n].
    apply f_equal. apply f_equal2; [apply f_equal2; [reflexivity|lia] | reflexivity].
  - replace (2 * length (v :: w :: t')) with (S (S (2 * length (w :: t')))) by (cbn [length]; lia).
    assert (Hne' : map fquote (w :: t') <> []) by discriminate.
    change (map fquote (v :: w :: t')) with (fquote v :: map fquote (w :: t')).
    rewrite (join_cons_ne _ _ _ Hne'), (commas_cons_ne _ _ Hne').
    specialize (IH (pos + length (quote v) + 1) rest).
    remember (map fquote (w :: t')) as items eqn:Ei.
    remember (2 * length (w :: t')) as n2 eqn:En.
    rewrite next_n_SS. unfold fquote at 1. rewrite <- !app_assoc.
    rewrite next_token_quote. cbn [t_pos t_val t_kind app].
    rewrite (next_token_single _ 44%N TComma); [|reflexivity|reflexivity].
    cbn [t_pos t_val t_kind length].
    rewrite IH by discriminate. cbn [app].
    apply f_equal. apply f_equal2; [apply f_equal2; [reflexivity|] | reflexivity].
    rewrite !app_length. cbn [length]. unfold fquote. lia.
Qed.

(* a quoted list of ANY values: bracket, the quoted items separated by commas, bracket; then the lexer
   continues with whatever follows *)
Theorem next_n_quote_list : forall vs pos rest,
  vs <> [] ->
  next_n (2 * length vs + 1) pos (quote_list vs ++ rest) =
  Some ((TLeftBracket, [91%N]) :: commas (map fquote vs) ++ [(TRightBracket, [93%N])],
        pos + length (quote_list vs), rest).
Proof.
  intros vs pos rest Hne. unfold quote_list. rewrite Nat.add_1_r. cbn [next_n app].
  rewrite (next_token_single _ 91%N TLeftBracket); [|reflexivity|reflexivity].
  cbn [t_pos t_val t_kind length]. rewrite <- app_assoc. cbn [app].
  rewrite next_n_items by exact Hne.
  apply f_equal. apply f_equal2; [apply f_equal2; [reflexivity|] | reflexivity].
  rewrite !app_length. cbn [length]. lia.
Qed.

Fixpoint occurs (pat l : bytes) : bool :=
  match l with
  | [] => false
  | _ :: t => starts_with pat l || occurs pat t
  end.

Lemma remove_all_aux_no_occ : forall pat fuel l,
  occurs pat l = false -> length l < fuel -> remove_all_aux fuel pat l = l.
Proof.
  intros pat. induction fuel as [|f IH]; intros l Ho Hl; [lia|].
  destruct l as [|c t]; cbn [remove_all_aux]; auto.
  cbn [occurs] in Ho. apply orb_false_iff in Ho. destruct Ho as [H1 H2].
  rewrite H1. rewrite IH; auto. cbn [length] in Hl. lia.
Qed.

Lemma remove_all_prefix : forall pat l,
  pat <> [] -> occurs pat l = false -> remove_all pat (pat ++ l) = l.
Proof.
  intros pat l Hp Ho. unfold remove_all. destruct pat as [|c t] eqn:Ep; [congruence|]. rewrite <- Ep in *.
  assert (Hne : pat <> []) by (rewrite Ep; discriminate).
  assert (Hc : exists c' t', pat ++ l = c' :: t') by (rewrite Ep; cbn; eauto).
  destruct Hc as (c' & t' & Hc).
  cbn [remove_all_aux]. rewrite Hc. cbn [remove_all_aux]. rewrite <- Hc.
  rewrite starts_with_app. rewrite skipn_app, Nat.sub_diag, skipn_all. cbn [skipn app].
  apply remove_all_aux_no_occ; auto. rewrite app_length.
  assert (0 < length pat) by (rewrite Ep; cbn; lia). lia.
Qed.

Definition last_nonspace (l : bytes) : bool :=
  match rev l with c :: _ => negb (is_space c) | [] => false end.

Lemma strip_ws_id : forall p x,
  (match p with c :: _ => is_space c = false | [] => False end) -> last_nonspace x = true ->
  strip_ws (p ++ x) = p ++ x.
Proof.
  intros p x Hp Hx. unfold strip_ws, strip_f, lstrip_f, rstrip_f.
  destruct p as [|c t]; [contradiction|]. cbn [app drop_while]. rewrite Hp.
  unfold last_nonspace in Hx.
  replace (c :: t ++ x) with ((c :: t) ++ x) by reflexivity. rewrite rev_app_distr.
  destruct (rev x) as [|d r] eqn:Er; [discriminate|]. cbn [app drop_while].
  apply negb_true_iff in Hx. rewrite Hx.
  replace (d :: r ++ rev (c :: t)) with ((d :: r) ++ rev (c :: t)) by reflexivity.
  rewrite <- Er, <- rev_app_distr, rev_involutive. reflexivity.
Qed.

(* the comment line is one hash-comment token ending before the line feed *)
Theorem scan_hash_line : forall p x rest,
  (match p with c :: _ => c = 35%N | [] => False end) ->
  contains_byte 10%N (p ++ x) = false ->
  scan_hash ((p ++ x) ++ 10%N :: rest) = Some (length (p ++ x)).
Proof.
  intros p x rest Hp Hn. destruct p as [|c t]; [contradiction|]. subst c.
  cbn [app scan_hash]. f_equal. cbn [length]. f_equal.
  cbn [app contains_byte] in Hn. cbn [N.eqb Pos.eqb orb] in Hn.
  revert Hn. generalize (t ++ x). intro l. induction l as [|a l IH]; intro Hn; cbn [app take_while length].
  - cbn [N.eqb]. reflexivity.
  - cbn [contains_byte] in Hn. apply orb_false_iff in Hn. destruct Hn as [H1 H2].
    rewrite H1. cbn [negb length]. f_equal. apply IH. exact H2.
Qed.

(* name / description recovered exactly *)
Theorem recover_stored : forall p x,
  (match p with c :: _ => is_space c = false | [] => False end) ->
  last_nonspace x = true -> occurs p x = false ->
  recover p (stored_comment p x) = Some x.
Proof.
  intros p x Hp Hx Ho. unfold stored_comment, recover.
  rewrite strip_ws_id by assumption. rewrite starts_with_app.
  rewrite remove_all_prefix; auto. destruct p; [contradiction|discriminate].
Qed.

Definition plain_byte (c : N) : bool := negb ((c =? 34)%N || (c =? 92)%N || (c =? 44)%N).
Definition plain (v : bytes) : bool := forallb plain_byte v.

Lemma plain_cons : forall c t, plain (c :: t) = true ->
  (c =? 34)%N = false /\ (c =? 92)%N = false /\ (c =? 44)%N = false /\ plain t = true.
Proof.
  intros c t H. cbn [plain forallb] in H. apply andb_true_iff in H as [Hc Ht]. unfold plain_byte in Hc.
  apply negb_true_iff, orb_false_iff in Hc as [Hc H44]. apply orb_false_iff in Hc as [H34 H92]. auto.
Qed.

Lemma escape_plain : forall v, plain v = true -> escape_q v = v.
Proof.
  induction v as [|c t IH]; [reflexivity|]. intro H. destruct (plain_cons c t H) as (H34 & H92 & _ & Ht).
  cbn [escape_q]. rewrite H92, H34, (IH Ht). reflexivity.
Qed.

Lemma drop_while_plain : forall v r,
  plain v = true -> v <> [] -> drop_while (fun c => (c =? 34)%N) (v ++ r) = v ++ r.
Proof.
  intros [|c t] r H Hne; [congruence|]. destruct (plain_cons c t H) as (H34 & _). cbn [app drop_while]. rewrite H34. reflexivity.
Qed.

Lemma plain_rev : forall v, plain v = true -> plain (rev v) = true.
Proof.
  intros v H. unfold plain in *. rewrite forallb_forall in *. intros x Hx. apply H. apply in_rev. exact Hx.
Qed.

Lemma plain_no_comma : forall v, plain v = true -> contains_byte 44%N v = false.
Proof.
  induction v as [|c t IH]; [reflexivity|]. intro H. destruct (plain_cons c t H) as (_ & _ & H44 & Ht).
  cbn [contains_byte]. rewrite H44. apply (IH Ht).
Qed.

(* str.strip(DQUOTE) on a value that has double quotes, and nothing else, around a plain text *)
Definition quotes (q : bytes) : Prop := Forall (fun c => c = 34%N) q.

Lemma drop_quotes : forall q r, quotes q ->
  drop_while (fun c => (c =? 34)%N) (q ++ r) = drop_while (fun c => (c =? 34)%N) r.
Proof. induction 1 as [|c q -> _ IH]; [reflexivity|exact IH]. Qed.

Lemma strip_dq_between : forall q1 q2 v, plain v = true -> quotes q1 -> quotes q2 -> strip_dq (q1 ++ v ++ q2) = v.
Proof.
  intros q1 q2 v Hp H1 H2. unfold strip_dq, strip_f, lstrip_f, rstrip_f. rewrite (drop_quotes q1 _ H1).
  destruct v as [|c t] eqn:Ev.
  - cbn [app]. rewrite <- (app_nil_r q2), (drop_quotes q2 [] H2). reflexivity.
  - rewrite <- Ev in *. assert (Hne : v <> []) by (rewrite Ev; discriminate).
    assert (Hr : rev v <> []) by (intro E; apply Hne; rewrite <- (rev_involutive v), E; reflexivity).
    rewrite (drop_while_plain v q2 Hp Hne), rev_app_distr, (drop_quotes (rev q2) _ (Forall_rev H2)).
    rewrite <- (app_nil_r (rev v)), (drop_while_plain (rev v) [] (plain_rev v Hp) Hr), app_nil_r. apply rev_involutive.
Qed.

Lemma strip_dq_quote_plain : forall v, plain v = true -> strip_dq (quote v) = v.
Proof.
  intros v H. unfold quote. rewrite (escape_plain v H).
  apply (strip_dq_between [34%N] [34%N] v H); repeat constructor.
Qed.

Lemma split_comma_aux_app : forall q cur rest, contains_byte 44%N q = false ->
  split_comma_aux cur (q ++ rest) = split_comma_aux (rev q ++ cur) rest.
Proof.
  induction q as [|c t IH]; intros cur rest H; cbn [app rev]; auto.
  cbn [contains_byte] in H. apply orb_false_iff in H. destruct H as [H1 H2].
  cbn [split_comma_aux]. rewrite H1. rewrite IH by exact H2. rewrite <- app_assoc. reflexivity.
Qed.

Lemma split_comma_aux_plain : forall v cur rest,
  plain v = true ->
  split_comma_aux cur (v ++ rest) = split_comma_aux (rev v ++ cur) rest.
Proof. intros v cur rest H. apply split_comma_aux_app, plain_no_comma, H. Qed.

Lemma split_comma_join : forall items,
  items <> [] -> Forall (fun q => contains_byte 44%N q = false) items ->
  split_comma (join [44%N] items) = items.
Proof.
  unfold split_comma. induction items as [|q t IH]; intros Hne Hall; [congruence|].
  inversion Hall as [|q' t' Hq Ht]; subst.
  destruct t as [|w t2].
  - cbn [join]. rewrite <- (app_nil_r q) at 1. rewrite split_comma_aux_app by exact Hq. cbn [split_comma_aux].
    rewrite app_nil_r, rev_involutive. reflexivity.
  - cbn [join]. rewrite split_comma_aux_app by exact Hq. cbn [app split_comma_aux N.eqb Pos.eqb].
    rewrite app_nil_r, rev_involutive. f_equal. apply IH; [discriminate|exact Ht].
Qed.

Lemma contains_quote_plain : forall v, plain v = true -> contains_byte 44%N (quote v) = false.
Proof.
  intros v H. unfold quote. rewrite (escape_plain v H). cbn [contains_byte N.eqb Pos.eqb orb].
  rewrite contains_byte_app, (plain_no_comma v H). reflexivity.
Qed.

Lemma drop_ends_brackets : forall l, drop_ends (91%N :: l ++ [93%N]) = l.
Proof. intro l. unfold drop_ends. cbn [tl]. apply removelast_last. Qed.

(* reading back a rendered list gives the values, for values free of commas, quotes and backslashes *)
Theorem to_list_quote_list : forall vs,
  vs <> [] -> Forall (fun v => plain v = true) vs -> to_list (quote_list vs) = vs.
Proof.
  intros vs Hne Hall. unfold to_list, quote_list. cbn [app]. rewrite drop_ends_brackets.
  rewrite split_comma_join.
  - rewrite map_map. rewrite <- (map_id vs) at 2. apply map_ext_in. intros v Hv.
    rewrite Forall_forall in Hall. apply strip_dq_quote_plain. apply Hall. exact Hv.
  - destruct vs; [congruence|discriminate].
  - apply Forall_forall. intros q Hq. apply in_map_iff in Hq. destruct Hq as (v & <- & Hv).
    rewrite Forall_forall in Hall. apply contains_quote_plain. apply Hall. exact Hv.
Qed.

(* ... and not beyond: a comma splits the value, a quote at the end is stripped (known findings of C19) *)
Example to_list_comma_refuted : to_list (quote_list [bs "a,b"]) = [bs "a"; bs "b"].
Proof. vm_compute. reflexivity. Qed.

Example to_list_quote_refuted : to_list (quote_list [bs "say ""hi"""]) <> [bs "say ""hi"""].
Proof. vm_compute. discriminate. Qed.

Example recover_example :
  recover (bs "# Filter: ") (stored_comment (bs "# Filter: ") (bs "caf" ++ [195%N; 169%N] ++ bs " #1 ""x"""))
  = Some (bs "caf" ++ [195%N; 169%N] ++ bs " #1 ""x""").
Proof. vm_compute. reflexivity. Qed.

Example quote_list_example :
  next_n 5 0 (quote_list [bs "a""] { discard; } #"; bs "b\"] ++ bs " { keep; }") =
  Some ([(TLeftBracket, [91%N]); (TString, quote (bs "a""] { discard; } #")); (TComma, [44%N]);
         (TString, quote (bs "b\")); (TRightBracket, [93%N])],
        length (quote_list [bs "a""] { discard; } #"; bs "b\"]), bs " { keep; }").
Proof. vm_compute. reflexivity. Qed.

Print Assumptions scan_string_quote.
Print Assumptions next_token_quote.
Print Assumptions unescape_escape.
Print Assumptions next_n_quote_list.
Print Assumptions scan_hash_line.
Print Assumptions recover_stored.
Print Assumptions to_list_quote_list.
